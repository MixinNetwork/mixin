(* C27 - membership follows the pledge/accept/cancel/remove lifecycle.
   The property theorems; they rest on the lemmas of Proofs/NodeState.v about
   the executable model Model/NodeState.v, which the correspondence harness
   (harness/cmd/c27) runs against storage/badger_node.go on a real Badger store.

   Vocabulary (Proofs/NodeState.v; [run] and [current] are the model's): [run ops] is the durable history after the
   operation sequence [ops] (a refused or panicking operation leaves it as it
   was); [genesis_ok t0 gs]: the genesis nodes (accepts with the genesis flag,
   distinct signer keys, timestamps in 1..t0); [increasing_from t0 ops]: every
   later operation carries a timestamp above all earlier ones, the precondition
   that C28 establishes for consensus operations; [current h s]: the last
   record of signer key s; [guard h o]: the lifecycle allows o on h;
   [node_ok h s]: the records of s are one node (one of the state sequences
   P, PA, PC, PAR, A, AR with one payee). *)
From Coq Require Import List ZArith NArith Bool.
Require Import Mixin.Base.Res Mixin.Model.NodeState Mixin.Proofs.NodeState.
Import ListNotations.
Open Scope N_scope.

(* In every reachable history, whatever operation comes next: it is recorded
   (appended as the newest record) exactly when the lifecycle allows it -
   a pledge only while no node is pledging and for a signer key that has no
   record; accept / cancel only for the node that is currently pledging, with
   its signer and payee; remove only for a currently accepted node with its
   signer and payee - and the only panic is accept/cancel/remove on the empty
   history.  At most one node is pledging, every signer key is one node. *)
Theorem C27_lifecycle : forall t0 gs pre o post,
  genesis_ok t0 gs -> increasing_from t0 (pre ++ o :: post) ->
  let h := run (gs ++ pre) in
  (forall s, node_ok h s) /\
  (forall s1 s2, is_pledging h s1 -> is_pledging h s2 -> s1 = s2) /\
  match apply h o with
  | Ok h' => h' = h ++ [rec_of o] /\ guard h o
  | Err => ~ guard h o
  | Panic => h = [] /\ o_kind o <> OPledge
  end.
Proof. exact lifecycle_thm. Qed.
Print Assumptions C27_lifecycle.

(* Signer keys never repeat across nodes: the records of one signer key form a
   single node, and two pledge records never carry the same signer key. *)
Theorem C27_signer_keys_unique : forall t0 gs ops,
  genesis_ok t0 gs -> increasing_from t0 ops ->
  let h := run (gs ++ ops) in
  (forall s, node_ok h s) /\
  (forall r1 r2, In r1 h -> In r2 h -> n_state r1 = Pledging -> n_state r2 = Pledging ->
                 n_signer r1 = n_signer r2 -> r1 = r2).
Proof.
  intros t0 gs ops Hg Hinc h. destruct (reach_inv t0 gs ops Hg Hinc) as [HI _]. fold h in HI.
  split; [apply (inv_nodes _ HI)|]. intros r1 r2 I1 I2 P1 P2 Es.
  apply (signer_state_unique h r1 r2 (inv_nodes _ HI) I1 I2 Es). congruence.
Qed.
Print Assumptions C27_signer_keys_unique.

(* ReadAllNodes (any threshold not below the last timestamp): with states it is
   the whole history; without, exactly one entry per signer key, its latest record. *)
Theorem C27_latest_state_reported : forall t0 gs ops th,
  genesis_ok t0 gs -> increasing_from t0 ops ->
  let h := run (gs ++ ops) in
  last_ts t0 ops <= th -> th < two64 ->
  read_all_nodes h th true = Ok h /\
  exists l, read_all_nodes h th false = Ok l /\
            (forall r, In r l <-> current h (n_signer r) = Some r) /\
            NoDup (map n_signer l).
Proof. intros t0 gs ops th Hg Hinc h Hth _. exact (reported_thm t0 gs ops th Hg Hinc Hth). Qed.
Print Assumptions C27_latest_state_reported.

(* The timestamp precondition is needed (it is not a finding: a node operation
   is only finalized as a consensus snapshot, and those are refused unless their
   timestamp is above the previous one's - C28; the harness checks the storage
   side of that guard on real code).  Without it: a pledge stamped 100, then
   its accept stamped 50 and once more stamped 60 are all recorded, the history
   of signer 3 reads Accepted, Accepted, Pledging and the node is reported as
   pledging. *)
Definition c27_g : list op := [mk_op OAccept 1 2 7 10 true].
Definition c27_bad : list op :=
  [mk_op OPledge 3 4 8 100 false; mk_op OAccept 3 4 9 50 false; mk_op OAccept 3 4 11 60 false].

Theorem C27_needs_order :
  genesis_ok 10 c27_g /\ Forall (fun o => o_genesis o = false /\ 10 < o_ts o) c27_bad /\
  ~ increasing_from 10 c27_bad /\
  map n_state (recs_of 3 (run (c27_g ++ c27_bad))) = [Accepted; Accepted; Pledging] /\
  ~ node_ok (run (c27_g ++ c27_bad)) 3 /\
  option_map n_state (current (run (c27_g ++ c27_bad)) 3) = Some Pledging.
Proof.
  split.
  { split; [repeat constructor; vm_compute; congruence|]. cbn. constructor; [intros []|constructor]. }
  split; [repeat constructor|].
  split; [intros (_ & _ & _ & _ & H & _); discriminate H|].
  assert (E : recs_of 3 (run (c27_g ++ c27_bad)) =
              [mk_nrec 3 4 Accepted 9 50; mk_nrec 3 4 Accepted 11 60; mk_nrec 3 4 Pledging 8 100])
    by (vm_compute; reflexivity).
  split; [rewrite E; reflexivity|].
  split; [|vm_compute; reflexivity].
  unfold node_ok. rewrite E. intros [H|[H _]]; [discriminate|]. cbn in H. inversion H.
Qed.
Print Assumptions C27_needs_order.

(* Non-vacuity: a schedule that satisfies the hypotheses and walks both
   lifecycles; the invalid operations in it are refused. *)
Definition c27_gs : list op := [mk_op OAccept 1 2 70 5 true; mk_op OAccept 9 8 71 5 true].
Definition c27_ops : list op :=
  [ mk_op OPledge 3 4 72 6 false;    (* recorded *)
    mk_op OPledge 5 6 73 7 false;    (* refused: 3 is pledging *)
    mk_op ORemove 1 2 74 8 false;    (* refused: 3 is pledging *)
    mk_op OAccept 3 9 75 9 false;    (* refused: wrong payee *)
    mk_op OAccept 3 4 76 10 false;   (* recorded *)
    mk_op ORemove 1 2 77 11 false;   (* recorded *)
    mk_op OPledge 1 2 78 12 false;   (* refused: signer key 1 was a node *)
    mk_op OPledge 5 6 79 13 false;   (* recorded *)
    mk_op OCancel 5 6 80 14 false;   (* recorded *)
    mk_op ORemove 3 4 81 15 false ]. (* recorded *)

Example C27_ex_schedule : genesis_ok 5 c27_gs /\ increasing_from 5 c27_ops.
Proof.
  split.
  - split; [repeat constructor; vm_compute; congruence|].
    cbn. constructor; [intros [H|[]]; discriminate|constructor; [intros []|constructor]].
  - repeat split; reflexivity.
Qed.

Example C27_ex_run :
  map (fun r => (n_signer r, n_state r, n_ts r)) (run (c27_gs ++ c27_ops)) =
  [(1, Accepted, 5); (9, Accepted, 5); (3, Pledging, 6); (3, Accepted, 10); (1, Removed, 11);
   (5, Pledging, 13); (5, Cancelled, 14); (3, Removed, 15)] /\
  rmap (map (fun r => (n_signer r, n_state r))) (read_all_nodes (run (c27_gs ++ c27_ops)) 15 false) =
  Ok [(9, Accepted); (1, Removed); (5, Cancelled); (3, Removed)] /\
  apply [] (mk_op OAccept 3 4 76 10 false) = Panic.
Proof. vm_compute. repeat split. Qed.

(* C27 over the consensus chain of C28: the timestamp precondition discharged.

   [chain l] (Model/KernelSnap.v) is what C28 proves of the recorded consensus
   history: one transaction per record, each record linked to the next,
   timestamps strictly increasing (C28_single_chain: every store reached by
   writeConsensusSnapshot calls is a chain).  [project body l] (Proofs/
   LifecycleChainLink.v) is the list of node operations finalization applies to
   the membership history: the records of l whose transaction is a node
   pledge/accept/cancel/remove ([body t = Some (kind, signer, payee)], the
   TRANSACTION body of the recorded hash), in chain order, with the record's
   transaction hash and snapshot timestamp.  g is the record of the genesis
   consensus snapshot, gs the genesis nodes (timestamps up to g's).  What is
   left of the timestamp hypothesis is only the range: a uint64 timestamp 12 h
   below 2^64 ([in_range]). *)
Require Import Mixin.Model.KernelSnap Mixin.Proofs.LifecycleChainLink.
Open Scope N_scope.

Theorem C27_chain_projection_increasing : forall body g rest,
  chain (g :: rest) -> (0 <= cr_ts g)%Z -> Forall in_range rest ->
  increasing_from (Z.to_N (cr_ts g)) (project body rest).
Proof. exact chain_projection_increasing. Qed.
Print Assumptions C27_chain_projection_increasing.

Theorem C27_lifecycle_over_consensus_chain : forall body gs g rest pre o post,
  chain (g :: rest) -> (0 <= cr_ts g)%Z -> Forall in_range rest ->
  genesis_ok (Z.to_N (cr_ts g)) gs ->
  project body rest = pre ++ o :: post ->
  let h := run (gs ++ pre) in
  (forall s, node_ok h s) /\
  (forall s1 s2, is_pledging h s1 -> is_pledging h s2 -> s1 = s2) /\
  match NodeState.apply h o with
  | Ok h' => h' = h ++ [rec_of o] /\ guard h o
  | Err => ~ guard h o
  | Panic => h = [] /\ o_kind o <> OPledge
  end.
Proof. exact lifecycle_over_chain. Qed.
Print Assumptions C27_lifecycle_over_consensus_chain.

(* The same stated on C28's write histories: whatever sequence of
   writeConsensusSnapshot calls follows the genesis record g, the store is a
   chain that still starts at g's timestamp (C28_single_chain), and the
   membership history built from its node operations obeys the lifecycle. *)
Theorem C27_lifecycle_over_consensus_writes : forall body gs g cops,
  chain [g] -> Forall (fun c => co_genesis c = false) cops ->
  exists g' rest,
    fold_left apply_cop cops [g] = g' :: rest /\ cr_ts g' = cr_ts g /\ chain (g' :: rest) /\
    ((0 <= cr_ts g)%Z -> Forall in_range rest -> genesis_ok (Z.to_N (cr_ts g)) gs ->
     forall pre o post, project body rest = pre ++ o :: post ->
       let h := run (gs ++ pre) in
       (forall s, node_ok h s) /\
       (forall s1 s2, is_pledging h s1 -> is_pledging h s2 -> s1 = s2) /\
       match NodeState.apply h o with
       | Ok h' => h' = h ++ [rec_of o] /\ guard h o
       | Err => ~ guard h o
       | Panic => h = [] /\ o_kind o <> OPledge
       end).
Proof. exact lifecycle_over_consensus_writes. Qed.
Print Assumptions C27_lifecycle_over_consensus_writes.

Theorem C27_reported_over_consensus_chain : forall body gs g rest th,
  chain (g :: rest) -> (0 <= cr_ts g)%Z -> Forall in_range rest ->
  genesis_ok (Z.to_N (cr_ts g)) gs ->
  let ops := project body rest in
  let h := run (gs ++ ops) in
  last_ts (Z.to_N (cr_ts g)) ops <= th -> th < NodeState.two64 ->
  read_all_nodes h th true = Ok h /\
  exists l, read_all_nodes h th false = Ok l /\
            (forall r, In r l <-> current h (n_signer r) = Some r) /\
            NoDup (map n_signer l).
Proof. intros body gs g rest th Hc H0 Hr Hg ops h Hth _. exact (reported_over_chain body gs g rest th Hc H0 Hr Hg Hth). Qed.
Print Assumptions C27_reported_over_consensus_chain.

(* Non-vacuity: a consensus chain (genesis record, a pledge, a mint, the accept)
   built by the model's own writeConsensusSnapshot; its projection and the
   membership history it yields. *)
Definition c27_body : body_t := fun t =>
  match t with 72 => Some (OPledge, 3, 4) | 76 => Some (OAccept, 3, 4) | _ => None end.
Definition c27_grec : crec :=
  {| cr_ts := 5; cr_snap := 500; cr_txs := [71]; cr_ref := None; cr_next := None |}.
Definition c27_cop (ts : Z) (snap tx ref : N) (mint : bool) (out0 : Z) : cop :=
  {| co_ts := ts; co_snap := snap; co_txs := [tx]; co_tx := tx; co_refs := [ref];
     co_mint := mint; co_out0 := Some out0; co_genesis := false |}.
Definition c27_cops : list cop :=
  [ c27_cop 6 501 72 71 false ONodePledge;
    c27_cop 6 502 99 72 false ONodeAccept;    (* refused: not later than the last record *)
    c27_cop 8 503 90 72 true OScript;         (* a mint *)
    c27_cop 10 504 76 90 false ONodeAccept ].

Example C27_ex_chain :
  chain [c27_grec] /\ Forall (fun c => co_genesis c = false) c27_cops /\
  exists g' rest,
    fold_left apply_cop c27_cops [c27_grec] = g' :: rest /\ chain (g' :: rest) /\
    Forall in_range rest /\ genesis_ok (Z.to_N (cr_ts g')) c27_gs /\
    map cr_ts (g' :: rest) = [5; 6; 8; 10]%Z /\
    project c27_body rest = [mk_op OPledge 3 4 72 6 false; mk_op OAccept 3 4 76 10 false] /\
    map (fun r => (n_signer r, n_state r, n_ts r)) (run (c27_gs ++ project c27_body rest)) =
      [(1, Accepted, 5); (9, Accepted, 5); (3, Pledging, 6); (3, Accepted, 10)].
Proof.
  split; [apply (chain_one _ 71); reflexivity|]. split; [repeat constructor|].
  eexists. eexists. split; [vm_compute; reflexivity|].
  split; [apply Mixin.Proofs.KernelSnap.chainb_sound; vm_compute; reflexivity|].
  split; [repeat constructor; vm_compute; reflexivity|].
  split; [exact (proj1 C27_ex_schedule)|].
  vm_compute. repeat split.
Qed.
