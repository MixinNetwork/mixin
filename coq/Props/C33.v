(* C33 - fixed-point amounts behave like exact decimal arithmetic.
   Property theorems about the executable model Model/Fixed.v, which the
   correspondence harness (harness/cmd/c33) runs against common.Integer;
   the lemmas they rest on are in Proofs/Fixed.v. *)
From Coq Require Import List ZArith NArith Bool QArith Lia ZifyBool.
Require Import Mixin.Base.Res Mixin.Model.Fixed Mixin.Proofs.Fixed.
Import ListNotations.
Open Scope Z_scope.

(* Printing an amount and parsing the text back returns the amount. *)
Theorem C33_parse_print : forall x, 0 <= x -> parse (print x) = Ok x.
Proof. exact parse_print. Qed.
Print Assumptions C33_parse_print.

(* Parsing decimal text "l1.l2" yields floor(value * 10^8): truncation to eight places.
   (The bound on the number of places is the int32 exponent of the decimal library.) *)
Theorem C33_parse_truncates : forall l1 l2,
  all_digits l1 -> all_digits l2 -> l1 ++ l2 <> [] -> Z.of_nat (length l2) <= 2 ^ 31 ->
  exists q, parse (l1 ++ ch_dot :: l2) = Ok q /\
            is_floor_div (val (l1 ++ l2) * 10 ^ precision) (10 ^ Z.of_nat (length l2)) q.
Proof.
  intros l1 l2 H1 H2 Hne Hlen. eexists. split; [apply parse_dotted; assumption|].
  apply scale10_floor, Nat2Z.is_nonneg.
Qed.
Print Assumptions C33_parse_truncates.

Theorem C33_parse_integer_text : forall l,
  all_digits l -> l <> [] -> parse l = Ok (val l * 10 ^ precision).
Proof.
  intros l H Hne. pose proof (count_dots_digits l H) as Hc.
  rewrite (parse_mantissa l l 0); try assumption; try lia.
  - reflexivity.
  - apply split_exp_digits. assumption.
  - rewrite Hc. reflexivity.
Qed.
Print Assumptions C33_parse_integer_text.

(* Whatever text parses, its value prints to a text that parses to the same value. *)
Theorem C33_print_is_normal_form : forall s v, parse s = Ok v -> parse (print v) = Ok v.
Proof. intros s v H. apply parse_print. exact (parse_nonneg s v H). Qed.
Print Assumptions C33_print_is_normal_form.

Theorem C33_parse_nonneg : forall s v, parse s = Ok v -> 0 <= v.
Proof. exact parse_nonneg. Qed.
Print Assumptions C33_parse_nonneg.

(* Add, Sub, Mul: the exact result, and a panic on exactly the operands that
   common.Integer rejects. *)
Theorem C33_add : forall x y,
  i_add x y = if (x <? 0) || (y <=? 0) then Panic else Ok (x + y).
Proof. exact i_add_spec. Qed.
Print Assumptions C33_add.

Theorem C33_sub : forall x y,
  i_sub x y = if (x <? 0) || (y <=? 0) || (x <? y) then Panic else Ok (x - y).
Proof. exact i_sub_spec. Qed.
Print Assumptions C33_sub.

Theorem C33_mul : forall x y,
  i_mul x y = if (x <? 0) || (y <=? 0) then Panic else Ok (x * y).
Proof. reflexivity. Qed.
Print Assumptions C33_mul.

Theorem C33_div : forall x y,
  (x < 0 \/ y <= 0 -> i_div x y = Panic) /\
  (0 <= x -> 0 < y -> exists q, i_div x y = Ok q /\ is_floor_div x y q /\ 0 <= q).
Proof.
  intros x y. split.
  - intros H. unfold i_div. replace ((x <? 0) || (y <=? 0)) with true by lia. reflexivity.
  - intros Hx Hy. exists (x / y). rewrite i_div_ok by assumption.
    split; [reflexivity|]. split; [apply floor_div; assumption|apply Z.div_pos; assumption].
Qed.
Print Assumptions C33_div.

Theorem C33_count : forall x y,
  (x <= 0 \/ y <= 0 \/ x < y -> i_count x y = Panic) /\
  (0 < y -> y <= x ->
     (x / y < 2 ^ 64 -> i_count x y = Ok (x / y) /\ is_floor_div x y (x / y) /\ 1 <= x / y) /\
     (2 ^ 64 <= x / y -> i_count x y = Panic)).
Proof. exact i_count_spec. Qed.
Print Assumptions C33_count.

Theorem C33_cmp : forall x y,
  (x < y -> i_cmp x y = -1) /\ (x = y -> i_cmp x y = 0) /\ (x > y -> i_cmp x y = 1).
Proof.
  intros x y. unfold i_cmp. repeat split; intros H; destruct (Z.compare_spec x y); lia.
Qed.
Print Assumptions C33_cmp.

Theorem C33_ratio_product : forall rx ry x,
  0 <= rx -> 0 < ry ->
  ration rx ry = Ok (rx, ry) /\
  (x < 0 -> product (rx, ry) x = Panic) /\
  (0 <= x -> exists q, product (rx, ry) x = Ok q /\ is_floor_div (x * rx) ry q /\ 0 <= q).
Proof.
  intros rx ry x Hx Hy. split; [apply ration_ok; assumption|]. split; intros H.
  - unfold product. replace (x <? 0) with true by lia. reflexivity.
  - exists (x * rx / ry). rewrite product_ok by (cbn [snd]; lia).
    split; [reflexivity|]. split; [apply floor_div; assumption|apply Z.div_pos; nia].
Qed.
Print Assumptions C33_ratio_product.

Theorem C33_ratio_cmp : forall a b c d, 0 < b -> 0 < d ->
  r_cmp (a, b) (c, d) =
  match Qcompare (a # Z.to_pos b) (c # Z.to_pos d) with Lt => -1 | Eq => 0 | Gt => 1 end.
Proof.
  intros a b c d Hb Hd. unfold r_cmp, i_cmp, Qcompare. cbn [fst snd Qnum Qden].
  rewrite !Z2Pos.id, (Z.mul_comm b c) by assumption. reflexivity.
Qed.
Print Assumptions C33_ratio_cmp.

Theorem C33_floor_is_unique : forall a b q q', 0 < b ->
  is_floor_div a b q -> is_floor_div a b q' -> q = q'.
Proof. unfold is_floor_div. intros a b q q' Hb H1 H2. nia. Qed.
Print Assumptions C33_floor_is_unique.

Example C33_ex_parse : parse [49;50;46;51;52;53;54;55;56;55;56;57;57]%N = Ok 1234567878
  /\ parse (print 1234567878) = Ok 1234567878 /\ print 5 = [48;46;48;48;48;48;48;48;48;53]%N.
Proof. vm_compute. repeat split. Qed.
Example C33_ex_ops : i_add 0 1 = Ok 1 /\ i_add 1 0 = Panic /\ i_sub 5 5 = Ok 0 /\ i_div 7 2 = Ok 3
  /\ i_count (2 ^ 64) 1 = Panic /\ i_count (2 ^ 64 - 1) 1 = Ok (2 ^ 64 - 1) /\ product (1, 3) 10 = Ok 3.
Proof. vm_compute. repeat split. Qed.
