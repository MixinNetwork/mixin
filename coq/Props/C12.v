(* C12 - a CoSi nonce never answers two different challenges.
   Property theorems, then non-vacuity examples, over the executable model Model/Nonce.v, which the
   correspondence harness (harness/cmd/c12) runs against crypto/nonce.go (16
   goroutines on copies of one handle) and the kernel's retention maps. *)
From Coq Require Import List ZArith NArith Bool Znumtheory.
Require Import Mixin.Base.Res Mixin.Gen.Consts Mixin.Model.Group Mixin.Model.Nonce Mixin.Proofs.Group Mixin.Proofs.Nonce.
Import ListNotations.
Open Scope Z_scope.

(* Over EVERY sequence of Response calls on handles sharing the state (every
   interleaving of the atomic critical section), from any state of the nonce:
   one pair (c, s) explains all results - every answered call carried challenge
   c and received s; every reuse error went to a call with another challenge;
   every other error went to a call whose challenge could not be computed. *)
Theorem C12_single_challenge : forall l qs st,
  exists c s, Forall2 (consistent c s) qs (snd (run l st qs)).
Proof.
  intros l qs. induction qs as [|q qs IH]; intros st; [exists 0, 0; constructor|].
  rewrite run_snd_cons. destruct (respond l st q) as [st1 r] eqn:Er. cbn [fst snd].
  pose proof (respond_result _ _ _ _ _ Er) as Hr. destruct r as [s| | |].
  - destruct Hr as (c & Hq & Hb). exists c, s. rewrite (run_bound l st1 c s qs Hb).
    constructor; [split; [exact Hq | reflexivity] | apply answers_consistent].
  - destruct Hr as (-> & Hu & c' & Hq & Hne). exists (n_challenge st), (n_response st).
    rewrite (run_bound l st _ _ qs (conj Hu (conj eq_refl eq_refl))).
    constructor; [exists c'; split; assumption | apply answers_consistent].
  - destruct Hr as [-> Hq]. destruct (IH st) as (c & s & HF). exists c, s. constructor; assumption.
  - subst st1. destruct (IH st) as (c & s & HF). exists c, s. constructor; [exact I | exact HF].
Qed.
Print Assumptions C12_single_challenge.

(* Once some call was answered with s for challenge c, every later call gets
   the identical s for the same challenge and the nonce-reuse error for any
   different challenge (never a fresh response, never a panic). *)
Theorem C12_identical_or_refused : forall l st qs1 q qs2 c s,
  q_challenge q = Some c ->
  nth_error (snd (run l st (qs1 ++ q :: qs2))) (length qs1) = Some (NOk s) ->
  skipn (S (length qs1)) (snd (run l st (qs1 ++ q :: qs2))) = map (answer c s) qs2.
Proof.
  intros l st qs1 q qs2 c s Hq Hn. rewrite run_app, run_snd_cons in *. cbn [snd] in *.
  destruct (Mixin.Proofs.Lists.nth_skipn_middle (snd (run l st qs1)) (snd (respond l (fst (run l st qs1)) q))
              (snd (run l (fst (respond l (fst (run l st qs1)) q)) qs2)) _ (run_length l qs1 st)) as [E1 E2].
  rewrite E1 in Hn. rewrite E2. destruct (respond l (fst (run l st qs1)) q) as [st2 r] eqn:Er.
  cbn [fst snd] in *. injection Hn as ->.
  destruct (respond_result _ _ _ _ _ Er) as (c' & Hq' & Hb). rewrite Hq in Hq'. injection Hq' as <-.
  rewrite (run_bound l st2 c s qs2 Hb). reflexivity.
Qed.
Print Assumptions C12_identical_or_refused.

(* Why reuse matters: two accepted responses to different challenges under one
   nonce determine the private key, for every prime group order: the multiplier
   w depends on the two challenges only. *)
Theorem C12_extraction : forall l c1 c2, prime l -> (c1 - c2) mod l <> 0 ->
  exists w, ((c1 - c2) * w) mod l = 1 mod l /\
    forall a r s1 s2,
      s1 mod l = (c1 * a + r) mod l -> s2 mod l = (c2 * a + r) mod l ->
      a mod l = ((s1 - s2) * w) mod l.
Proof. exact extraction. Qed.
Print Assumptions C12_extraction.

(* The same through the model's own response computation: answering a second,
   different challenge from a fresh copy of the nonce would reveal the key. *)
Theorem C12_extraction_respond : forall l z a c1 c2 s1 s2, prime l -> (c1 - c2) mod l <> 0 ->
  snd (respond l (new_nonce z) (mkReq (Some c1) a)) = NOk s1 ->
  snd (respond l (new_nonce z) (mkReq (Some c2) a)) = NOk s2 ->
  exists w, ((c1 - c2) * w) mod l = 1 mod l /\ a mod l = ((s1 - s2) * w) mod l.
Proof.
  intros l z a c1 c2 s1 s2 Hp Hc H1 H2.
  destruct (extraction l c1 c2 Hp Hc) as (w & Hw & Hx). exists w. split; [exact Hw|].
  unfold respond, new_nonce in H1, H2. cbn in H1, H2.
  destruct (negb (scalar_ok l a)); [discriminate|].
  destruct (negb (scalar_ok l z)); [discriminate|].
  cbn in H1, H2. injection H1 as <-. injection H2 as <-. apply (Hx a z); apply Zmod_mod.
Qed.
Print Assumptions C12_extraction_respond.

(* Kernel retention (cosiRetrieveRandom / retainUsedCosiNonce), every sequence
   of pool refills with fresh nonces and retrievals, any retention bound: a
   commitment is handed out for at most one snapshot hash ... *)
Theorem C12_retention : forall m ops, fresh_ok [] ops ->
  forall s1 s2 c, In (s1, c) (snd (rrun m empty_retention ops)) ->
                  In (s2, c) (snd (rrun m empty_retention ops)) -> s1 = s2.
Proof.
  intros m ops HF s1 s2 c H1 H2.
  pose proof (rrun_inv m ops [] [] empty_retention empty_inv HF) as HI.
  apply (inv_B_fun _ _ _ HI s1 s2 c); apply in_app_iff; left; assumption.
Qed.
Print Assumptions C12_retention.

(* ... while its binding is retained the same snapshot gets the same nonce back ... *)
Theorem C12_retention_retained : forall m r s c,
  used_get (used r) s = Some c -> retrieve m r s c = (r, Some c).
Proof. intros m r s c H. unfold retrieve. rewrite H, N.eqb_refl. reflexivity. Qed.
Print Assumptions C12_retention_retained.

(* ... and once the binding is gone (evicted or overwritten) the commitment can
   never be obtained again, for any snapshot. *)
Theorem C12_retention_evicted : forall m ops1 ops2, fresh_ok [] (ops1 ++ ops2) ->
  forall s c, In (s, c) (snd (rrun m empty_retention ops1)) ->
  (forall s', ~ In (s', c) (used (fst (rrun m empty_retention ops1)))) ->
  forall s2, ~ In (s2, c) (snd (rrun m (fst (rrun m empty_retention ops1)) ops2)).
Proof.
  intros m ops1 ops2 HF s c Hh Hu s2 Hin.
  apply fresh_ok_app in HF. destruct HF as [HF1 HF2].
  pose proof (rrun_inv m ops1 [] [] empty_retention empty_inv HF1) as HI. rewrite app_nil_r in HI.
  destruct (rrun_outputs m ops2 _ _ s2 c HF2 Hin) as [Hu'|[Hp|Hg]].
  - exact (Hu _ Hu').
  - exact (inv_pool_fresh _ _ _ HI _ s Hp Hh).
  - exact (Hg (inv_B_G _ _ _ HI _ _ Hh)).
Qed.
Print Assumptions C12_retention_evicted.

Example C12_ex_run :
  snd (run 13 (new_nonce 5) [mkReq None 3; mkReq (Some 4) 3; mkReq (Some 4) 7; mkReq (Some 6) 3; mkReq None 3])
  = [NErr; NOk 4; NOk 4; NReuse; NErr].
Proof. vm_compute. reflexivity. Qed.

(* over the real group order: the inverse computed by extended Euclid recovers the key *)
Example C12_ex_extract :
  let l := Consts.EdL in
  let a := 1234567891011121314151617181920 in let z := 998877665544332211 in
  let c1 := 2 ^ 200 + 17 in let c2 := 3 ^ 100 in
  let s1 := (c1 * a + z) mod l in let s2 := (c2 * a + z) mod l in
  ((c1 - c2) * modinv l (c1 - c2)) mod l = 1 /\ ((s1 - s2) * modinv l (c1 - c2)) mod l = a.
Proof.
  (* [modinv l (c1 - c2)] stands in both conjuncts: it is named and its value
     fixed first, so Euclid's algorithm over the 252-bit order is checked once *)
  intros l a z c1 c2 s1 s2. set (m := modinv l (c1 - c2)).
  let v := eval vm_compute in m in assert (E : m = v) by (vm_compute; reflexivity).
  clearbody m. subst m. split; vm_compute; reflexivity.
Qed.

Example C12_ex_retention :
  let ops := [RPrepare [10; 11]%N; RRetrieve 1 10; RRetrieve 2 10; RRetrieve 1 10; RRetrieve 2 11;
              RRetrieve 3 11; RRetrieve 1 10]%N in
  fresh_ok [] ops /\ snd (rrun 1 empty_retention ops) = [(1, 10); (1, 10); (2, 11)]%N.
Proof.
  split.
  - cbn. split; [repeat constructor; intros [] | exact I].
  - vm_compute. reflexivity.
Qed.
