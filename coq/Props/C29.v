(* C29 - operator election is deterministic, never selects the oldest or newest
   accepted node nor the node it removes; membership operations are only valid
   inside their epoch-hour windows.
   Property theorems, then non-vacuity examples, over lemmas of Proofs/Election.v about the
   executable model Model/Election.v, which harness/cmd/c29 runs against the
   real electSnapshotNode / checkRemovePossibility / hour predicates.

   Vocabulary: [all] is the membership history as the node holds it,
   [nodes_list all now true] the accepted list at [now] (ordered by acceptance
   time, then id), [elect all epoch op now] the elected id (Panic below the
   minimum membership, id 0 for an operation that is not elected),
   [hour_of epoch ts] the hour of the epoch day. *)
From Coq Require Import List ZArith NArith Bool Permutation.
Require Import Mixin.Base.Res Mixin.Gen.Consts Mixin.Model.Election Mixin.Proofs.Election.
Import ListNotations.
Open Scope Z_scope.

(* The elected node is a function of the accepted list at [now], the day of the
   epoch and the operation: two nodes that agree on these elect the same id,
   whatever else their histories contain. *)
Theorem C29_function : forall all all' epoch epoch' op now now',
  nodes_list all now true = nodes_list all' now' true ->
  day_of epoch now = day_of epoch' now' ->
  elect all epoch op now = elect all' epoch' op now'.
Proof. intros. unfold elect. congruence. Qed.
Print Assumptions C29_function.

(* ... and it is exactly this function. *)
Theorem C29_function_def : forall all epoch op now,
  elect all epoch op now = elect_on (nodes_list all now true) (day_of epoch now) op.
Proof. reflexivity. Qed.
Print Assumptions C29_function_def.

(* The accepted list carries each id once (so "oldest" and "newest" are well
   defined), is the accepted part of the full list and only contains records
   of the history. *)
Theorem C29_accepted_list_wellformed : forall all now,
  NoDup (map r_id (nodes_list all now true)) /\
  nodes_list all now true = filter is_accepted (nodes_list all now false) /\
  (forall x, In x (nodes_list all now true) -> In x all).
Proof.
  intros all now. split; [apply nodes_list_nodup|].
  split; [apply nodes_list_accepted|apply nodes_list_incl].
Qed.
Print Assumptions C29_accepted_list_wellformed.

(* With at least the minimum number of accepted nodes, an elected operation
   yields an accepted node that is neither the first (oldest) nor the last
   (newest) of the accepted list.  Distinctness of ids is a property of the
   list (previous theorem), not a hypothesis. *)
Theorem C29_not_ends : forall all epoch op now,
  valid_op op = true ->
  Consts.QMinNodes <= Z.of_nat (length (nodes_list all now true)) ->
  exists id, elect all epoch op now = Ok id
    /\ In id (map r_id (nodes_list all now true))
    /\ (forall a, hd_error (nodes_list all now true) = Some a -> id <> r_id a)
    /\ (forall z, hd_error (rev (nodes_list all now true)) = Some z -> id <> r_id z).
Proof. exact elect_not_ends. Qed.
Print Assumptions C29_not_ends.

(* A node never handles its own removal: whatever checkRemovePossibility
   answers for the asking node is another node ... *)
Theorem C29_not_self_removal_guard : forall all epoch node_id now old c,
  check_remove all epoch node_id now old = Ok c -> r_id c <> node_id.
Proof.
  intros all epoch node_id now old c H. apply check_remove_ok in H.
  destruct H as (_ & _ & _ & ca & _ & _ & _ & H). exact H.
Qed.
Print Assumptions C29_not_self_removal_guard.

(* ... and the node elected for the removal operation is never the removal
   candidate (the head of the accepted list), whoever asks. *)
Theorem C29_not_self_removal : forall all epoch node_id now c e,
  check_remove all epoch node_id now None = Ok c ->
  elect all epoch Consts.QOpNodeRemove now = Ok e ->
  hd_error (nodes_list all now true) = Some c /\ e <> r_id c.
Proof.
  intros all epoch node_id now c e Hc He.
  destruct (check_remove_head _ _ _ _ _ Hc) as [Hh Hl]. split; [exact Hh|].
  destruct (elect_not_ends all epoch Consts.QOpNodeRemove now eq_refl (Z.lt_le_incl _ _ Hl))
    as (id & He' & _ & Ha & _).
  rewrite He in He'. injection He' as <-. exact (Ha c Hh).
Qed.
Print Assumptions C29_not_self_removal.

(* Hour windows.  The predicates accept exactly the configured hours ... *)
Theorem C29_windows : forall epoch ts,
  (accept_hour epoch ts = true <->
     Consts.QAcceptTimeBegin <= hour_of epoch ts <= Consts.QAcceptTimeEnd) /\
  (pledge_hour epoch ts = true <->
     ~ (Consts.QMintTimeBegin <= hour_of epoch ts <= Consts.QMintTimeEnd) /\
     ~ (Consts.QAcceptTimeBegin <= hour_of epoch ts <= Consts.QAcceptTimeEnd)) /\
  (mint_window_batch epoch ts <> 0 ->
     epoch < ts /\
     Consts.QMintTimeBegin <= ((ts - epoch) / Consts.QHour) mod 24 <= Consts.QMintTimeEnd /\
     mint_window_batch epoch ts = (ts - epoch) / Consts.QHour / 24 /\ 1 <= mint_window_batch epoch ts) /\
  (epoch < ts -> 1 <= (ts - epoch) / Consts.QHour / 24 ->
     Consts.QMintTimeBegin <= ((ts - epoch) / Consts.QHour) mod 24 <= Consts.QMintTimeEnd ->
     mint_window_batch epoch ts = (ts - epoch) / Consts.QHour / 24) /\
  0 <= hour_of epoch ts < 24.
Proof.
  intros epoch ts.
  split; [apply accept_hour_spec|]. split; [apply pledge_hour_spec|].
  split; [apply mint_window_spec|]. split; [apply mint_window_complete|apply hour_of_range].
Qed.
Print Assumptions C29_windows.

(* ... which are the documented ones: accept / cancel / remove in hours 13..19,
   mint in hours 7..9, pledge in every other hour. *)
Theorem C29_windows_documented :
  Consts.QAcceptTimeBegin = 13 /\ Consts.QAcceptTimeEnd = 19 /\
  Consts.QMintTimeBegin = 7 /\ Consts.QMintTimeEnd = 9 /\ Consts.QHour = 3600 * 10 ^ 9.
Proof. vm_compute. repeat split. Qed.
Print Assumptions C29_windows_documented.

(* The operations are valid only inside the windows: a removal is possible only
   at or after the epoch in an accept hour with no node pledging; an accept or a
   cancel only in an accept hour, for the pledging node, between the minimum and
   maximum period after its pledge. *)
Theorem C29_operations_in_window : forall all epoch now,
  (forall node_id old c, check_remove all epoch node_id now old = Ok c ->
     epoch <= now /\ accept_hour epoch now = true /\ pledging_node all now = None) /\
  (forall chain, accept_timing all epoch now chain = Ok tt ->
     epoch <= now /\ accept_hour epoch now = true /\
     exists p, pledging_node all now = Some p /\ r_ts p <= now /\
       Consts.QAcceptPeriodMinimum <= to_int64 (now - r_ts p) <= Consts.QAcceptPeriodMaximum).
Proof.
  intros all epoch now. split.
  - intros node_id old c H. apply check_remove_ok in H. destruct H as (Hp & He & Ha & _). auto.
  - intros chain H. eapply accept_timing_window; exact H.
Qed.
Print Assumptions C29_operations_in_window.

(* The same on every node.  LoadConsensusNodes reads the records with
   storage.ReadAllNodes(_, true), which returns them in the store's key order
   (timestamp, signer), and re-sorts them by (timestamp, id string); the theorem
   covers any order of arrival.  The store keys a record by (timestamp,
   signer) and the id is derived from the signer, so the (timestamp, id) pairs of
   a history are pairwise distinct: [distinct_keys].  Under exactly that
   guarantee every permutation of the record list loads to the same history,
   hence to the same membership views, the same elected node and the same
   removal candidate at every time. *)
Theorem C29_same_on_every_node : forall recs recs' epoch op now,
  Permutation recs recs' -> distinct_keys recs ->
  load recs = load recs' /\
  (forall accepted_only, nodes_list (load recs) now accepted_only = nodes_list (load recs') now accepted_only) /\
  elect (load recs) epoch op now = elect (load recs') epoch op now /\
  (forall node_id old, check_remove (load recs) epoch node_id now old = check_remove (load recs') epoch node_id now old).
Proof.
  intros recs recs' epoch op now Hp Hd. rewrite (load_perm recs recs' Hp Hd). repeat split.
Qed.
Print Assumptions C29_same_on_every_node.

(* the sorted history is the unique sorted permutation (what the proof rests on) *)
Theorem C29_sorted_order_unique : forall l l',
  sorted l -> sorted l' -> Permutation l l' -> distinct_keys l -> l = l'.
Proof. exact sorted_perm_unique. Qed.
Print Assumptions C29_sorted_order_unique.

Definition ex_epoch : Z := 1551312000000000000.
Definition ex_recs : list nrec :=
  map (fun i => mkrec i (ex_epoch + Z.of_N i) Accepted i) [5; 3; 9; 1; 7; 2; 8; 4; 6]%N.

(* 9 accepted nodes on day 123: the elected ids differ per operation, none is
   the oldest (1) or the newest (9); the removal candidate at hour 14 is node 1
   and node 1 asking is refused *)
Example C29_ex_elect :
  let all := load ex_recs in
  let now := ex_epoch + 123 * Consts.QOneDay + 14 * Consts.QHour in
  map r_id (nodes_list all now true) = [1; 2; 3; 4; 5; 6; 7; 8; 9]%N /\
  elect all ex_epoch Consts.QOpMint now = Ok 7%N /\
  elect all ex_epoch Consts.QOpNodeRemove now = Ok 8%N /\
  elect all ex_epoch Consts.QOpNodePledge now = Ok 5%N /\
  elect all ex_epoch 0 now = Ok 0%N /\
  elect (load (firstn 6 ex_recs)) ex_epoch Consts.QOpMint now = Panic /\
  rmap r_id (check_remove all ex_epoch 8%N now None) = Ok 1%N /\
  rmap r_id (check_remove all ex_epoch 1%N now None) = Err /\
  rmap r_id (check_remove all ex_epoch 8%N (now + 6 * Consts.QHour) None) = Err.
Proof. vm_compute. repeat split. Qed.

Example C29_ex_hours :
  map (fun h => accept_hour ex_epoch (ex_epoch + 40 * Consts.QOneDay + h * Consts.QHour)) [12; 13; 19; 20]
    = [false; true; true; false] /\
  map (fun h => pledge_hour ex_epoch (ex_epoch + 40 * Consts.QOneDay + h * Consts.QHour)) [6; 7; 9; 10; 12; 13; 19; 20]
    = [true; false; false; true; true; false; false; true] /\
  map (fun h => mint_window_batch ex_epoch (ex_epoch + 40 * Consts.QOneDay + h * Consts.QHour)) [6; 7; 9; 10]
    = [0; 40; 40; 0] /\
  accept_timing (load (ex_recs ++ [mkrec 10 (ex_epoch + 40 * Consts.QOneDay) Pledging 10])) ex_epoch
    (ex_epoch + 40 * Consts.QOneDay + 13 * Consts.QHour) (Some 10%N) = Ok tt.
Proof. vm_compute. repeat split. Qed.

(* order independence: the reversed record list is a permutation with distinct
   keys and loads to the same history; without distinct keys (two records of
   one node at one timestamp) the loaded history does depend on the order, so
   the hypothesis cannot be dropped *)
Example C29_ex_order :
  distinct_keys ex_recs /\ Permutation ex_recs (rev ex_recs) /\
  load ex_recs = load (rev ex_recs) /\
  (let a := mkrec 1 ex_epoch Accepted 1 in let b := mkrec 1 ex_epoch Removed 2 in
   load [a; b] <> load [b; a]).
Proof.
  split; [apply distinct_keysb_sound; vm_compute; reflexivity|].
  split; [apply Permutation_rev|]. split; [vm_compute; reflexivity|].
  vm_compute. discriminate.
Qed.
