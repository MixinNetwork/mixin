(* C26 - node work is credited exactly once per snapshot.

   Property theorems, from the lemmas of Proofs/Work.v (the refused shapes
   unfold the model directly) about the executable model Model/Work.v of
   storage/badger_work.go (WriteRoundWork, ListNodeWorks, ReadWorkOffset),
   which the correspondence harness (harness/cmd/c26) runs against a real
   Badger store on whole histories of calls.

   Vocabulary (Model/Work.v):
     sub                  one call WriteRoundWork(node, round, snaps, credit)
     run_all st h         the store after the calls of h; Ok iff no call panicked
     run st h             the same with panicking calls discarded (transaction rolled back)
     all_pairs h          every (proposer, snapshot) occurrence of h, with repeats
     enumerates C h       C lists every (proposer, snapshot) of h exactly once
     leads C n d          number of pairs of C proposed by n on day d
     signs C m d          signer entries equal to m in pairs of C of day d proposed by others
     signs_mem C m d      number of pairs of C of day d proposed by others whose signers contain m
     valid h              h is built by appending, per node, either
                            - a wf_sub submission that [follows]: same round as the node's
                              current one with a superset of the current list (monotone), or
                              the next round (consecutive; a node's first round is 0 or 1),
                              and is [hash_consistent] with everything before, or
                            - a [stale] replay of an older round containing nothing new.

   Where the hypotheses come from (kernel/mint.go AggregateMintWork):
     - consecutive rounds: the loop starts at ReadWorkOffset and increments by one.
     - monotone: the submitted list is ReadSnapshotWorksForNodeRound(round) at the time of
       the call; SnapshotWork records of a round are only added (storage/badger_graph.go
       writeSnapshot) until WriteRoundWork itself deletes the round it leaves.
     - NoDup hashes / hash_consistent: records are keyed by (node, round, timestamp) and the
       snapshot hash covers node, round and timestamp, so one hash names one record
       (collision freedom of the hash is the assumption); kernel/round.go validateSnapshot
       refuses a repeated hash or timestamp in a round.
     - one day per round: kernel/round.go:213, kernel/cosi.go:419, kernel/queue.go:299.
     - proposer occurs exactly once among the signers, signers non-empty: the signer list is
       cids[k] for the set bits k of the CoSi mask (kernel/graph.go cacheVerifyCosi), so it is
       duplicate free; an honest proposer always contributes its own commitment
       (kernel/cosi.go:477), so it is in the mask.  verifyFinalization itself does not check the
       proposer's bit: for a finalized snapshot without it WriteRoundWork panics
       (C26_panic_leader_count) - that is an availability question outside this property.
       Genesis snapshots have no signers: credit_fresh then credits nothing, which is outside
       this theorem (wf_sub excludes them).
     - credit = true constant per round: the flag is (day of round = day of next round) or the
       mainnet legacy term, both functions of the round.  With credit = false the call records
       the snapshots as seen WITHOUT crediting; a later call with credit = true does not
       credit them either (C26_credit_flip_refuted below).
     - round < 2^64 - 1: the Go code computes off+1 in uint64. *)
From Coq Require Import List ZArith NArith Bool.
Require Import Mixin.Base.Res Mixin.Gen.Consts Mixin.Model.Work Mixin.Proofs.Work.
Import ListNotations.
Open Scope Z_scope.

(* Every valid history, however often and in which monotone pattern rounds are
   re-submitted and however nodes are interleaved: no call panics, and every
   counter equals (mod 2^64, the width of the stored counter) the count over the
   DISTINCT snapshots submitted - for every duplicate-free enumeration C. *)
Theorem C26_exactly_once : forall h, valid h ->
  exists st, run_all empty_state h = Ok st /\
    forall C, enumerates C h ->
      (forall n d, lead st n d = leads C n d mod two64) /\
      (forall m d, sign st m d = signs C m d mod two64).
Proof.
  intros h Hv. destruct (main_inv h Hv) as (st & C0 & Hrun & Hen0 & _ & Hc).
  exists st. split; [exact Hrun|]. intros C Hen.
  exact (counts_perm st C0 C (enumerates_perm C0 C h Hen0 Hen) Hc).
Qed.
Print Assumptions C26_exactly_once.

(* Without the wrap when the counts fit a uint64; with duplicate-free signer
   lists the signing credit is the number of distinct snapshots m signed. *)
Theorem C26_exactly_once_nowrap : forall h, valid h ->
  exists st, run_all empty_state h = Ok st /\ run empty_state h = st /\
    forall C, enumerates C h ->
      (forall n d, leads C n d < two64 -> lead st n d = leads C n d) /\
      (forall m d, signs C m d < two64 -> sign st m d = signs C m d) /\
      (forall m d, (forall x, In x C -> NoDup (s_signers (snd x))) ->
                   signs C m d < two64 -> sign st m d = signs_mem C m d).
Proof.
  intros h Hv. destruct (C26_exactly_once h Hv) as (st & Hrun & Hall).
  exists st. split; [exact Hrun|]. split; [exact (run_all_run h _ st Hrun)|].
  intros C Hen. destruct (Hall C Hen) as [Hld Hsg]. split; [|split].
  - intros n d Hlt. rewrite Hld. apply Z.mod_small. split; [apply leads_nonneg | exact Hlt].
  - intros m d Hlt. rewrite Hsg. apply Z.mod_small. split; [apply signs_nonneg | exact Hlt].
  - intros m d Hnd Hlt. rewrite Hsg, <- (signs_mem_eq C m d Hnd).
    apply Z.mod_small. split; [apply signs_nonneg | exact Hlt].
Qed.
Print Assumptions C26_exactly_once_nowrap.

(* the quantification over C is not empty *)
Theorem C26_enumeration_exists : forall h, valid h -> exists C, enumerates C h.
Proof. intros h Hv. destruct (main_inv h Hv) as (st & C & _ & Hen & _). exists C. exact Hen. Qed.
Print Assumptions C26_enumeration_exists.

(* ReadWorkOffset after a valid history is the node's current round *)
Theorem C26_offset_tracks : forall h, valid h ->
  exists st, run_all empty_state h = Ok st /\ forall n, read_work_offset st n = cur_round n h.
Proof.
  intros h Hv. destruct (main_inv h Hv) as (st & C & Hrun & _ & Hcp & _).
  exists st. split; [exact Hrun|]. intros n. unfold read_work_offset. rewrite Hcp. reflexivity.
Qed.
Print Assumptions C26_offset_tracks.

(* Re-submitting, for the checkpointed round, a list whose hashes are all in the
   seen set and cover it: counters untouched (as functions), other checkpoints
   untouched, the node's seen set replaced by an equal set.  Any state, any
   credit flag, no well-formedness needed. *)
Theorem C26_replay_identity : forall st n r seen snaps credit,
  cp st n = (r, seen) -> 0 <= r -> r + 1 < two64 ->
  (forall w, In w snaps -> In (s_hash w) seen) ->
  (forall x, In x seen -> In x (hashes snaps)) ->
  exists st', write_round_work st n r snaps credit = Ok st' /\
    lead st' = lead st /\ sign st' = sign st /\
    (forall m, m <> n -> cp st' m = cp st m) /\
    cp st' n = (r, hashes snaps).
Proof.
  intros st n r seen snaps credit Hcp Hr Hlt Hin Hcov.
  exists (set_cp st n (r, hashes snaps)). split; [|split; [reflexivity|split; [reflexivity|split]]].
  - rewrite (wrw_step _ _ _ _ _ _ _ Hcp Hr Hlt), Z.eqb_refl by Lia.lia.
    replace (forallb _ seen) with true.
    + unfold unseen. rewrite Mixin.Proofs.Lists.filter_none; [reflexivity|].
      apply Forall_forall. intros w Hw. apply negb_false_iff, memN_In, Hin, Hw.
    + symmetry. apply forallb_forall. intros x Hx. apply memN_In, Hcov, Hx.
  - intros m Hm. cbn [set_cp cp]. rewrite (proj2 (N.eqb_neq m n) Hm). reflexivity.
  - cbn [set_cp cp]. rewrite N.eqb_refl. reflexivity.
Qed.
Print Assumptions C26_replay_identity.

Theorem C26_stale_noop : forall st n r ws c,
  fst (cp st n) > r -> write_round_work st n r ws c = Ok st.
Proof. exact stale_noop. Qed.
Print Assumptions C26_stale_noop.

(* The refused shapes: model and real code panic, store unchanged. *)

Theorem C26_panic_round_gap : forall st n r snaps credit off seen,
  cp st n = (off, seen) -> 0 <= off -> off + 1 < two64 -> r > off + 1 ->
  write_round_work st n r snaps credit = Panic.
Proof.
  intros st n r snaps credit off seen Hcp Hoff Hlt Hr.
  unfold write_round_work. rewrite Hcp, Z.mod_small by Lia.lia.
  replace (off >? r) with false by Lia.lia. replace (r >? off + 1) with true by Lia.lia. reflexivity.
Qed.
Print Assumptions C26_panic_round_gap.

Theorem C26_panic_missing_seen : forall st n r snaps credit seen x,
  cp st n = (r, seen) -> In x seen -> ~ In x (hashes snaps) ->
  write_round_work st n r snaps credit = Panic.
Proof.
  intros st n r snaps credit seen x Hcp Hx Hnot.
  unfold write_round_work. rewrite Hcp. replace (r >? r) with false by Lia.lia.
  destruct (r >? (r + 1) mod two64); [reflexivity|]. cbv zeta. rewrite Z.eqb_refl.
  replace (forallb _ seen) with false; [reflexivity|]. symmetry. apply not_true_is_false.
  intros Hc. rewrite forallb_forall in Hc. apply Hnot, memN_In, Hc, Hx.
Qed.
Print Assumptions C26_panic_missing_seen.

(* new round, first snapshot signed, credit requested: zero timestamp, a second
   day, or a zero hash anywhere in the list *)
Theorem C26_panic_invalid_snapshot : forall st n off seen w0 rest w,
  cp st n = (off, seen) -> 0 <= off -> off + 1 < two64 ->
  s_signers w0 <> [] -> In w (w0 :: rest) ->
  (s_ts w = 0 \/ day_of (s_ts w) <> day_of (s_ts w0) \/ s_hash w = 0%N) ->
  write_round_work st n (off + 1) (w0 :: rest) true = Panic.
Proof.
  intros st n off seen w0 rest w Hcp Hoff Hlt Hsg Hw Hbad.
  rewrite (new_round_credit st n off seen w0 rest Hcp Hoff Hlt Hsg).
  replace (forallb _ _) with false; [reflexivity|]. symmetry. apply not_true_is_false.
  intros Hall. rewrite forallb_forall in Hall. specialize (Hall w Hw). unfold snap_ok in Hall. Lia.lia.
Qed.
Print Assumptions C26_panic_invalid_snapshot.

(* ... or the proposer's signer entries do not add up to the batch size *)
Theorem C26_panic_leader_count : forall st n off seen w0 rest,
  cp st n = (off, seen) -> 0 <= off -> off + 1 < two64 ->
  s_signers w0 <> [] ->
  wm n (w0 :: rest) <> Z.of_nat (length (w0 :: rest)) ->
  write_round_work st n (off + 1) (w0 :: rest) true = Panic.
Proof.
  intros st n off seen w0 rest Hcp Hoff Hlt Hsg Hwm.
  rewrite (new_round_credit st n off seen w0 rest Hcp Hoff Hlt Hsg).
  rewrite (proj2 (Z.eqb_neq _ _) Hwm), andb_false_r. reflexivity.
Qed.
Print Assumptions C26_panic_leader_count.

(* What the hypotheses exclude; the witnesses are corpus cases of the harness.
   D is an arbitrary day number (19000 days after the epoch, in 2022). *)

Definition D : Z := 19000.
Definition T (d off : Z) : Z := d * Consts.WorkDayNanos + off.
Definition a1 := mk_snap 1 (T D 5) [1; 2]%N.
Definition a2 := mk_snap 2 (T D 6) [2; 1; 3]%N.
Definition b1 := mk_snap 3 (T (D + 1) 0) [1]%N.

(* "each submitted snapshot is credited once" is false without NoDup inside one
   list: a hash occurring twice in one call is credited twice.  The caller reads
   the list from keys (node, round, timestamp), so it cannot repeat a record. *)
Theorem C26_duplicate_in_list_refuted :
  exists s, hashes (u_snaps s) = [1; 1]%N /\
            lead (run empty_state [s]) 1%N D = 2.
Proof. exists (mk_sub 1 1 [a1; a1] true). vm_compute. split; reflexivity. Qed.
Print Assumptions C26_duplicate_in_list_refuted.

(* "... credited once" is false when the credit flag of a round changes from
   false to true: the first call marks the snapshot seen, the second finds
   nothing fresh. *)
Theorem C26_credit_flip_refuted :
  lead (run empty_state [mk_sub 1 1 [a1] false; mk_sub 1 1 [a1] true]) 1%N D = 0.
Proof. vm_compute. reflexivity. Qed.
Print Assumptions C26_credit_flip_refuted.

(* a history with repeats, growth, a day change and a stale replay *)

Definition s1 := mk_sub 1 1 [a1] true.
Definition s2 := mk_sub 1 1 [a1] true.          (* the same again *)
Definition s3 := mk_sub 1 1 [a2; a1] true.      (* grown, other order *)
Definition s4 := mk_sub 1 2 [b1] true.          (* next round, next day *)
Definition s5 := mk_sub 1 1 [a1; a2] true.      (* replay of the finished round *)
Definition s6 := mk_sub 1 2 [b1] true.          (* and the current one again *)
Definition h_ex := [s1; s2; s3; s4; s5; s6].

Example h_ex_valid : valid h_ex.
Proof. apply (validb_valid h_ex [] valid_nil). vm_compute. reflexivity. Qed.

(* three distinct snapshots were submitted in eight occurrences *)
Example h_ex_counts :
  let st := run empty_state h_ex in
  (length (all_pairs h_ex), lead st 1%N D, lead st 1%N (D + 1), sign st 2%N D, sign st 3%N D,
   sign st 1%N D, read_work_offset st 1%N)
  = (8%nat, 2, 1, 2, 1, 0, 2).
Proof. vm_compute. reflexivity. Qed.

Example h_ex_spec :
  let C := [(1%N, a1); (1%N, a2); (1%N, b1)] in
  (leads C 1%N D, leads C 1%N (D + 1), signs C 2%N D, signs C 3%N D, signs_mem C 2%N D)
  = (2, 1, 2, 1, 2).
Proof. vm_compute. reflexivity. Qed.

Example ex_gap : write_round_work empty_state 1%N 2 [a1] false = Panic.
Proof. vm_compute. reflexivity. Qed.
Example ex_missing :
  write_round_work (run empty_state [mk_sub 1 1 [a1; a2] false]) 1%N 1 [a1] false = Panic.
Proof. vm_compute. reflexivity. Qed.
Example ex_mixed_days : write_round_work empty_state 1%N 1 [a1; b1] true = Panic.
Proof. vm_compute. reflexivity. Qed.
Example ex_midnight :
  day_of (T D 0 - 1) = D - 1 /\ day_of (T D 0) = D /\
  write_round_work empty_state 1%N 1 [mk_snap 1 (T D 0 - 1) [1]%N; mk_snap 2 (T D 0) [1]%N] true = Panic.
Proof. vm_compute. repeat split; reflexivity. Qed.
Example ex_zero_ts : write_round_work empty_state 1%N 1 [mk_snap 1 0 [1]%N] true = Panic.
Proof. vm_compute. reflexivity. Qed.
Example ex_zero_hash : write_round_work empty_state 1%N 1 [mk_snap 0 (T D 1) [1]%N] true = Panic.
Proof. vm_compute. reflexivity. Qed.
Example ex_no_leader : write_round_work empty_state 1%N 1 [mk_snap 1 (T D 1) [2]%N] true = Panic.
Proof. vm_compute. reflexivity. Qed.
(* not validated at all when credit = false or the first fresh snapshot has no signers *)
Example ex_unvalidated :
  is_ok (write_round_work empty_state 1%N 1 [mk_snap 0 0 []; b1] true) = true /\
  is_ok (write_round_work empty_state 1%N 1 [mk_snap 0 0 [2]%N; b1] false) = true.
Proof. vm_compute. split; reflexivity. Qed.
