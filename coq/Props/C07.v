(* C07 - snapshot encoding is canonical and the snapshot hash commits the payload.
   Property theorems only, proved from the lemmas of
   Proofs/SnapCodec.v about the executable model Model/SnapCodec.v, which the
   correspondence harness (harness/cmd/c07) runs against
   common.UnmarshalVersionedSnapshot / VersionedMarshal / PayloadHash.

   Vocabulary (Proofs/SnapCodec.v):
     Bytes b        every element of b is a byte (< 256)
     shape s        1..255 strictly increasing hashes; round 0 -> one tx, no refs;
                    round > 0 -> refs
     fields_ok s    every field fits its Go type (32-byte hashes, uint64, 64-byte sig,
                    a present signature has a non-zero mask)
     wf s           version 2, 1..255 distinct hashes, the round rules, fields_ok
     canon s        s with its transactions in increasing order
     payload_fields (version, node, round, references, sorted transactions, timestamp) *)
From Coq Require Import List ZArith NArith Bool Lia ZifyN ZifyNat.
Require Import Mixin.Base.Res Mixin.Model.SnapCodec Mixin.Proofs.SnapCodec.
Import ListNotations.
Open Scope N_scope.

(* Any byte string the decoder accepts is exactly the encoding of the decoded
   snapshot: with the full 8-byte topology suffix, or with no suffix at all (and
   then the order is 0).  The encoder does not panic on an accepted snapshot. *)
Theorem C07_canonical : forall b s topo,
  unmarshal_snapshot b = Ok (s, topo) -> Bytes b ->
  exists e, enc_snapshot_payload s true = Ok e /\
            versioned_marshal s topo = Ok (e ++ u64 topo) /\
            ((b = e /\ topo = 0) \/ b = e ++ u64 topo).
Proof. exact canonical. Qed.
Print Assumptions C07_canonical.

(* In particular nothing strictly between the two lengths, and nothing longer, is accepted. *)
Theorem C07_no_partial_suffix : forall s topo e k b,
  enc_snapshot_payload s true = Ok e -> Bytes b ->
  unmarshal_snapshot b = Ok (s, topo) -> length b = (length e + k)%nat -> k = 0%nat \/ k = 8%nat.
Proof.
  intros s topo e k b He Hb H Hl. destruct (canonical b s topo H Hb) as (e' & He' & _ & Hform).
  rewrite He in He'. injection He' as <-.
  destruct Hform as [[-> _]| ->]; [left; lia|right].
  rewrite app_length in Hl. unfold u64 in Hl. rewrite be_bytes_length in Hl. lia.
Qed.
Print Assumptions C07_no_partial_suffix.

(* A well-formed snapshot encodes, and both forms decode to it (transactions sorted). *)
Theorem C07_roundtrip : forall s topo, wf s -> topo < u64_bound ->
  exists e, enc_snapshot_payload s true = Ok e /\
            versioned_marshal s topo = Ok (e ++ u64 topo) /\
            unmarshal_snapshot (e ++ u64 topo) = Ok (canon s, topo) /\
            unmarshal_snapshot e = Ok (canon s, 0).
Proof. exact roundtrip. Qed.
Print Assumptions C07_roundtrip.

Theorem C07_roundtrip_sorted_is_identity : forall s, strictly_inc (s_txs s) = true -> canon s = s.
Proof. intros s H. unfold canon. rewrite sinc_isort by exact H. destruct s; reflexivity. Qed.
Print Assumptions C07_roundtrip_sorted_is_identity.

(* Accepted snapshots: 1..255 strictly increasing hashes; round 0 has exactly one
   transaction and no references; later rounds carry references; version 2. *)
Theorem C07_shape : forall b s topo,
  unmarshal_snapshot b = Ok (s, topo) -> Bytes b ->
  ((1 <= length (s_txs s) <= 255)%nat /\ strictly_inc (s_txs s) = true /\
   (s_round s = 0 -> length (s_txs s) = 1%nat /\ s_refs s = None) /\
   (s_round s <> 0 -> s_refs s <> None)) /\
  s_version s = snap_version /\ fields_ok s.
Proof.
  intros b s topo H Hb. destruct (unmarshal_inv b s topo H Hb) as (Hv & Hshape & Hf & _). auto.
Qed.
Print Assumptions C07_shape.

Theorem C07_decoder_never_panics : forall b, unmarshal_snapshot b <> Panic.
Proof. exact unmarshal_no_panic. Qed.
Print Assumptions C07_decoder_never_panics.

(* The payload encoding is injective in version, node, round, references, sorted
   transactions and timestamp ... *)
Theorem C07_payload_injective : forall s1 s2 p, pfields_ok s1 -> pfields_ok s2 ->
  enc_snapshot_payload (strip_sig s1) false = Ok p ->
  enc_snapshot_payload (strip_sig s2) false = Ok p ->
  payload_fields s1 = payload_fields s2.
Proof. exact payload_injective. Qed.
Print Assumptions C07_payload_injective.

(* ... and a function of these fields alone. *)
Theorem C07_payload_function_of_fields : forall s1 s2,
  payload_fields s1 = payload_fields s2 -> versioned_payload s1 = versioned_payload s2.
Proof. exact versioned_payload_fields. Qed.
Print Assumptions C07_payload_function_of_fields.

(* The snapshot hash is H of the payload encoding, for an arbitrary hash function
   H.  It is the same for equal payload fields; and if H does not collide on the
   two payload encodings, equal hashes force equal payload fields: the hash
   changes with version, node, round, references, transactions and timestamp. *)
Theorem C07_hash_fields : forall (H : list N -> N) s1 s2 h1 h2, pfields_ok s1 -> pfields_ok s2 ->
  payload_hash H s1 = Ok h1 -> payload_hash H s2 = Ok h2 ->
  (payload_fields s1 = payload_fields s2 -> h1 = h2) /\
  ((forall p1 p2, versioned_payload s1 = Ok p1 -> versioned_payload s2 = Ok p2 -> H p1 = H p2 -> p1 = p2) ->
   h1 = h2 -> payload_fields s1 = payload_fields s2).
Proof.
  intros H s1 s2 h1 h2 F1 F2 E1 E2. split.
  - intros Hf. unfold payload_hash in *. rewrite (versioned_payload_fields _ _ Hf) in E1. congruence.
  - intros Hinj Hh.
    destruct (payload_hash_is_H_of_payload _ _ _ E1) as (p1 & P1 & -> & V1).
    destruct (payload_hash_is_H_of_payload _ _ _ E2) as (p2 & P2 & -> & V2).
    assert (p1 = p2) as <-.
    { apply Hinj; try assumption; unfold versioned_payload; [rewrite V1|rewrite V2]; rewrite N.eqb_refl; assumption. }
    exact (payload_injective s1 s2 p1 F1 F2 P1 P2).
Qed.
Print Assumptions C07_hash_fields.

Theorem C07_hash_is_H_of_payload : forall (H : list N -> N) s h, payload_hash H s = Ok h ->
  exists p, enc_snapshot_payload (strip_sig s) false = Ok p /\ h = H p /\ s_version s = snap_version.
Proof. exact payload_hash_is_H_of_payload. Qed.
Print Assumptions C07_hash_is_H_of_payload.

(* It never changes with the signature or the local topological order ... *)
Theorem C07_hash_ignores_signature_topology : forall (H : list N -> N) s c c' t t',
  payload_hash_topo H (with_sig s c, t) = payload_hash_topo H (with_sig s c', t').
Proof. reflexivity. Qed.
Print Assumptions C07_hash_ignores_signature_topology.

(* ... nor with the order in which the same transactions are listed. *)
Theorem C07_payload_ignores_listing_order : forall s txs', NoDup (s_txs s) -> NoDup txs' ->
  (forall y, In y (s_txs s) <-> In y txs') ->
  versioned_payload (with_txs s txs') = versioned_payload s.
Proof.
  intros s txs' N1 N2 Hin. apply versioned_payload_fields. unfold payload_fields, with_txs.
  cbn [s_version s_node s_round s_refs s_txs s_ts]. rewrite (isort_listing_order _ _ N1 N2 Hin). reflexivity.
Qed.
Print Assumptions C07_payload_ignores_listing_order.

Definition ex_genesis : snapshot := MkSnap 2 17 0 None [5] 1 None.
Definition ex_later : snapshot :=
  MkSnap 2 (2 ^ 255 + 3) 7 (Some (11, 2 ^ 200)) [9; 2 ^ 256 - 1; 4] (2 ^ 64 - 1) (Some (1, 2 ^ 511 + 1)).

Ltac dec_lt := apply N.ltb_lt; vm_compute; reflexivity.

Example C07_ex_wf_genesis : wf ex_genesis.
Proof.
  unfold wf, fields_ok, ex_genesis; cbn [s_version s_node s_round s_refs s_txs s_ts s_sig length refs_ok sig_ok].
  repeat split; try dec_lt; try (cbn; lia); try discriminate; try (intros Hc; exfalso; apply Hc; reflexivity).
  - constructor; [intros []|constructor].
  - constructor; [dec_lt|constructor].
Qed.

Example C07_ex_wf_later : wf ex_later.
Proof.
  unfold wf, fields_ok, ex_later; cbn [s_version s_node s_round s_refs s_txs s_ts s_sig length refs_ok sig_ok].
  repeat split; try dec_lt; try (cbn; lia); try discriminate.
  - repeat constructor; cbn [In]; intros Hin;
      repeat (destruct Hin as [Hin|Hin]; [vm_compute in Hin; discriminate Hin|]); exact Hin.
  - repeat constructor; dec_lt.
Qed.

(* the round trip computed; the transactions come back sorted; the F3 witness
   (topology suffix cut to 1..7 bytes) and every extension are rejected *)
Example C07_ex_roundtrip :
  (exists e, versioned_marshal ex_later 258 = Ok e /\ length e = 296%nat /\
     unmarshal_snapshot e = Ok (canon ex_later, 258) /\
     unmarshal_snapshot (firstn 288 e) = Ok (canon ex_later, 0) /\
     s_txs (canon ex_later) = [4; 9; 2 ^ 256 - 1] /\
     forallb (fun k => negb (is_ok (unmarshal_snapshot (firstn k e))))
             [289; 290; 291; 292; 293; 294; 295]%nat = true /\
     unmarshal_snapshot (e ++ [0]) = Err /\
     forallb (fun k => negb (is_ok (unmarshal_snapshot (firstn k e)))) (seq 0 288) = true)
  /\ (exists e, versioned_marshal ex_genesis 0 = Ok e /\ unmarshal_snapshot e = Ok (ex_genesis, 0)
        /\ unmarshal_snapshot (firstn (length e - 8) e) = Ok (ex_genesis, 0)).
Proof.
  split; eexists; (split; [vm_compute; reflexivity|]); vm_compute; repeat split.
Qed.

Example C07_ex_encoder_panics :
  versioned_marshal (MkSnap 2 1 3 (Some (1, 1)) [5; 5] 1 None) 0 = Panic /\
  versioned_marshal (MkSnap 2 1 0 None [5; 6] 1 None) 0 = Panic /\
  versioned_marshal (MkSnap 2 1 3 (Some (1, 1)) [] 1 None) 0 = Panic /\
  versioned_marshal (MkSnap 2 1 3 (Some (1, 1)) [5] 1 (Some (0, 9))) 0 = Panic /\
  versioned_marshal (MkSnap 3 1 3 (Some (1, 1)) [5] 1 None) 0 = Panic /\
  versioned_payload (with_sig ex_later None) = versioned_payload ex_later /\
  is_ok (versioned_payload ex_later) = true /\
  pfields_ok ex_later.
Proof.
  split; [vm_compute; reflexivity|]. split; [vm_compute; reflexivity|].
  split; [vm_compute; reflexivity|]. split; [vm_compute; reflexivity|].
  split; [vm_compute; reflexivity|]. split; [reflexivity|]. split; [vm_compute; reflexivity|].
  unfold pfields_ok, ex_later; cbn [s_node s_round s_refs s_txs s_ts refs_ok].
  split; [dec_lt|]. split; [dec_lt|]. split; [split; dec_lt|]. split; [|dec_lt].
  repeat constructor; dec_lt.
Qed.
