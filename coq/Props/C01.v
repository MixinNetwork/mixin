(* C01 - accepted transactions conserve value within one asset.
   Property theorems about the executable model Model/Validate.v, which the
   correspondence harness (harness/cmd/c01) runs against the real
   VersionedTransaction.Validate.  The proofs are in Proofs/Validate.v, where
   Proofs/FinalizeValidateLink.v finds [conservation] as well.  The statements
   hold for EVERY view of the store (hence every reachable ledger), every
   timestamp, both fork values and every value of the signature / curve facts. *)
From Coq Require Import List ZArith NArith Bool.
Require Import Mixin.Base.Res Mixin.Gen.Consts Mixin.Model.Fixed Mixin.Model.Validate Mixin.Proofs.Validate.
Import ListNotations.
Open Scope Z_scope.

(* An accepted transaction: (i) the total of its inputs - the spent output
   records' amounts, or the amount of the mint / deposit input, which then is the
   only input - equals the total of its outputs; (ii) that total is positive;
   (iii) every output amount is positive; (iv) every ordinary input is an output
   record of the view whose asset is the transaction's asset; (v) no output
   record is spent twice. *)
Theorem C01_conservation : forall v f h ts fork t,
  validate v f h ts fork t = Ok tt ->
  sum_inputs v t = Some (sum_outputs t) /\
  0 < sum_outputs t /\
  Forall (fun o => 0 < o_amount o) (t_outputs t) /\
  Forall (fun i => special i = false -> input_backed v t i) (t_inputs t) /\
  (existsb special (t_inputs t) = false -> NoDup (map in_slot (t_inputs t))).
Proof. exact conservation. Qed.
Print Assumptions C01_conservation.

(* The early return of validateInputs at the first mint / deposit input skips the
   remaining inputs; validateMint / validateDeposit close the hole: *)
Theorem C01_special_single : forall v f h ts fork t,
  validate v f h ts fork t = Ok tt ->
  existsb special (t_inputs t) = true -> length (t_inputs t) = 1%nat.
Proof. exact special_single. Qed.
Print Assumptions C01_special_single.

(* the two ingredients, usable on their own *)
Theorem C01_inputs_sum : forall v f h t ty fork flt a,
  validate_inputs v f h t ty fork = Ok (flt, a) ->
  (existsb special (t_inputs t) = true /\ (forall i, t_inputs t = [i] -> a = special_amount i)) \/
  (existsb special (t_inputs t) = false /\ sum_utxos v (t_inputs t) = Some a /\
   Forall (input_backed v t) (t_inputs t) /\ NoDup (map in_slot (t_inputs t)) /\
   map fst flt = map in_slot (t_inputs t)).
Proof. exact validate_inputs_spec. Qed.
Print Assumptions C01_inputs_sum.

Theorem C01_outputs_sum : forall v f h t a fork,
  validate_outputs v f h t a fork = Ok tt ->
  a = sum_outputs t /\ Forall (fun o => 0 < o_amount o) (t_outputs t).
Proof. exact validate_outputs_spec. Qed.
Print Assumptions C01_outputs_sum.

(* concrete accepted transactions of several types *)

Definition ex_script : bytes := [255; 254; 1]%N.
Definition ex_utxo (a : Z) : utxo :=
  {| u_type := ot_script; u_asset := xin; u_amount := a; u_nkeys := 1; u_script := ex_script; u_lock := 0%N |}.
Definition ex_view : view :=
  {| v_utxo := fun h i => if (h =? 1)%N && (i =? 0) then Some (ex_utxo 100)
                          else if (h =? 2)%N && (i =? 3) then Some (ex_utxo 23) else None;
     v_tx := fun _ => None; v_deposit_lock := fun _ => 0%N; v_last_mint := Some (7, 50, 99%N);
     v_nodes := fun _ => []; v_custodian := fun _ => Some {| c_addr := (5%N, 6%N); c_nodes := [] |};
     v_asset := fun _ => None; v_ghost_ok := fun _ _ _ => true |}.
Definition ex_facts : facts :=
  {| f_check_key := fun _ => true; f_agg_ok := true; f_deposit_sig := true; f_claim_sig := true;
     f_accept_sig := true; f_cancel_ghost := Ok true; f_cancel_sig := true; f_cust_prev_sig := true;
     f_cust_node_sigs := [] |}.
Definition ex_out (a : Z) (k : N) : output :=
  {| o_type := ot_script; o_amount := a; o_keys := [k]; o_mask := 9%N; o_script := ex_script; o_withdrawal := None |}.
Definition ex_in (h : N) (i : Z) : input :=
  {| i_hash := h; i_index := i; i_genesis := None; i_deposit := None; i_mint := None |}.

Definition ex_transfer : tx :=
  {| t_version := 5; t_asset := xin; t_inputs := [ex_in 1 0; ex_in 2 3]; t_outputs := [ex_out 120 11; ex_out 3 12];
     t_refs := []; t_extra := []; t_agg := None; t_sigs := Some [[(0, true)]; [(0, true)]] |}.
Example C01_ex_transfer : validate ex_view ex_facts 77%N 1 false ex_transfer = Ok tt
  /\ sum_inputs ex_view ex_transfer = Some 123 /\ sum_outputs ex_transfer = 123.
Proof. vm_compute. repeat split. Qed.

Definition ex_mint : tx :=
  {| t_version := 5; t_asset := xin;
     t_inputs := [{| i_hash := 0%N; i_index := 0; i_genesis := None; i_deposit := None;
                     i_mint := Some {| m_group := Consts.ValMintGroupUniversal; m_batch := 8; m_amount := 50 |} |}];
     t_outputs := [ex_out 20 11; ex_out 30 12]; t_refs := []; t_extra := []; t_agg := None; t_sigs := Some [[(0, false)]] |}.
Example C01_ex_mint : validate ex_view ex_facts 77%N 1 false ex_mint = Ok tt
  /\ sum_inputs ex_view ex_mint = Some 50 /\ sum_outputs ex_mint = 50.
Proof. vm_compute. repeat split. Qed.

Definition ex_deposit : tx :=
  {| t_version := 5; t_asset := 4242%N;
     t_inputs := [{| i_hash := 0%N; i_index := 0; i_genesis := None; i_mint := None;
                     i_deposit := Some {| d_chain := 3%N; d_key := [48]%N; d_key_trim := true; d_txlen := 4;
                                          d_tx_trim := true; d_index := 0; d_amount := 10 |} |}];
     t_outputs := [ex_out 10 11]; t_refs := []; t_extra := []; t_agg := None; t_sigs := Some [[(0, false)]] |}.
Example C01_ex_deposit : validate ex_view ex_facts 77%N 1 false ex_deposit = Ok tt
  /\ sum_inputs ex_view ex_deposit = Some 10.
Proof. vm_compute. repeat split. Qed.

Definition ex_submit : tx :=
  {| t_version := 5; t_asset := xin; t_inputs := [ex_in 1 0];
     t_outputs := [{| o_type := ot_wsubmit; o_amount := 60; o_keys := []; o_mask := 0%N; o_script := [];
                      o_withdrawal := Some (34, 0) |}; ex_out 40 12];
     t_refs := []; t_extra := []; t_agg := Some [0]; t_sigs := None |}.
Example C01_ex_withdrawal_aggregated : validate ex_view ex_facts 77%N 1 false ex_submit = Ok tt.
Proof. vm_compute. reflexivity. Qed.

(* the same transfer with an unbalanced output, a wrong-asset input or a surplus mint input is refused *)
Example C01_ex_refused :
  validate ex_view ex_facts 77%N 1 false
    {| t_version := 5; t_asset := xin; t_inputs := [ex_in 1 0]; t_outputs := [ex_out 101 11];
       t_refs := []; t_extra := []; t_agg := None; t_sigs := Some [[(0, true)]] |} = Err
  /\ validate ex_view ex_facts 77%N 1 false
    {| t_version := 5; t_asset := 4242%N; t_inputs := [ex_in 1 0]; t_outputs := [ex_out 100 11];
       t_refs := []; t_extra := []; t_agg := None; t_sigs := Some [[(0, true)]] |} = Err
  /\ validate ex_view ex_facts 77%N 1 false
    {| t_version := 5; t_asset := xin; t_inputs := t_inputs ex_mint ++ [ex_in 1 0]; t_outputs := [ex_out 50 11];
       t_refs := []; t_extra := []; t_agg := None; t_sigs := Some [[(0, false)]; [(0, true)]] |} = Err.
Proof. vm_compute. repeat split. Qed.
