(* C31 - every message the node sends fits the transport limit; framing
   round-trips; oversized frames are refused before their body is allocated.
   Property theorems, then non-vacuity examples, about Model/P2PMsg.v (p2p/quic.go framing,
   p2p/handle.go builders, kernel/queue.go batcher accounting), which
   harness/cmd/c31 runs against the real code. *)
From Coq Require Import List ZArith NArith Bool Lia.
Require Import Mixin.Base.Res Mixin.Gen.Consts Mixin.Model.P2PMsg Mixin.Proofs.Res Mixin.Proofs.P2PMsg.
Import ListNotations.
Open Scope Z_scope.

(* Send then receive returns exactly the message, for every message of 1..max
   bytes; the receiver consumes header + body and allocates the body size. *)
Theorem C31_frame_roundtrip : forall m, 1 <= len m <= max_size ->
  exists f, encode_frame m = Ok f /\ len f = header_size + len m /\
    decode_frame f = Ok (frame_version, m) /\
    receive max_size f = mk_recv (Ok (frame_version, m)) (header_size + len m) (len m).
Proof.
  intros m H. destruct (frame_roundtrip m H) as (f & E & L & R).
  exists f. repeat split; try assumption. unfold decode_frame. now rewrite R.
Qed.
Print Assumptions C31_frame_roundtrip.

(* Send refuses everything else, so nothing above the maximum is ever framed. *)
Theorem C31_send_bounds : forall m f, encode_frame m = Ok f -> 1 <= len m <= max_size.
Proof.
  intros m f H. unfold encode_frame in H. destruct ((len m <? 1) || (max_size <? len m)) eqn:E; [discriminate|lia].
Qed.
Print Assumptions C31_send_bounds.

(* A header announcing more than the limit is refused after reading the
   header only, with no body buffer allocated, whatever follows on the stream. *)
Theorem C31_oversize_rejected_before_alloc : forall limit hdr rest,
  0 < limit <= max_size -> len hdr = header_size ->
  limit < be_val (skipn 2 hdr) ->
  receive limit (hdr ++ rest) = mk_recv Err header_size 0.
Proof.
  intros limit hdr rest Hl Hh Hs. rewrite receive_app by assumption. cbv zeta.
  replace ((limit =? 0) || (max_size <? limit)) with false by lia.
  destruct (negb _); [reflexivity|].
  replace (limit <? be_val (skipn 2 hdr)) with true by lia. reflexivity.
Qed.
Print Assumptions C31_oversize_rejected_before_alloc.

(* The decision of receive depends on sizes only: limit, version byte, announced
   size, bytes available behind the header. *)
Theorem C31_receive_by_sizes : forall limit v x n body, 0 <= n < 4294967296 ->
  rmap (fun r => len (snd r)) (rv_result (receive limit ([v; x] ++ be_bytes 4 n ++ body))) =
  receive_decision limit v n (len body).
Proof.
  intros limit v x n body Hn. unfold receive_decision.
  rewrite app_assoc, receive_app by (rewrite len_app, len_be_bytes; reflexivity).
  cbn [app nth skipn]. cbv zeta. rewrite be_roundtrip by assumption.
  destruct (_ || _); [reflexivity|]. destruct (negb _); [reflexivity|].
  destruct (limit <? n); [reflexivity|]. destruct (len body <? n) eqn:E; [reflexivity|].
  cbn [rmap rv_result snd]. f_equal. apply len_firstn. pose proof (len_nonneg body). lia.
Qed.
Print Assumptions C31_receive_by_sizes.

(* Receive applies the limit Send applies: every size Send accepts comes back whole. *)
Theorem C31_send_receive_agree : forall n, send_accepts n = true -> send_receive_size n = Ok n.
Proof.
  intros n H. unfold send_receive_size. rewrite H. unfold send_accepts in H.
  unfold receive_decision, receive_limit. rewrite N.eqb_refl.
  replace (max_size <? n) with false by lia. replace (n <? n) with false by lia. reflexivity.
Qed.
Print Assumptions C31_send_receive_agree.

(* bundle message length = 1 + 1 + sum (4 + signed size) *)
Theorem C31_size_formula : forall txs typ m, build_transactions txs typ = Ok m ->
  len m = txs_msg_len (map len txs).
Proof.
  intros txs typ m H. unfold build_transactions in H. apply bind_ok in H as (pl & E & <-%Ok_inj).
  rewrite len_cons, (len_txs_payload _ _ E). unfold txs_msg_len. lia.
Qed.
Print Assumptions C31_size_formula.

Theorem C31_relay_size : forall me peer m, len me = hash_size -> len peer = hash_size ->
  rmap len (build_relay me peer m) = relay_len (len m).
Proof.
  intros me peer m H1 H2. unfold build_relay, relay_len. destruct (max_size <? len m); [reflexivity|].
  cbn [rmap]. f_equal. rewrite len_cons, !len_app. unfold relay_header. lia.
Qed.
Print Assumptions C31_relay_size.

(* For every queue content of at most 255 transactions (what the loop
   retrieves), the batch formed by the accounting rule -- running sum of SIGNED
   sizes below 2/3 of the maximum at the moment each transaction is admitted --
   builds, and the message plus the 65-byte relay header fits the transport maximum. *)
Theorem C31_batch_fits : forall (txs : list (bytes * bool)) typ,
  len txs <= txs_max ->
  exists m, build_transactions (batch_of txs) typ = Ok m /\
    len m + relay_header <= max_size /\
    exists r, build_relay (repeat 0%N 32) (repeat 0%N 32) m = Ok r /\ len r <= max_size.
Proof.
  intros txs typ H. destruct (batch_fits txs typ H) as (m & E & F).
  exists m. repeat split; try assumption.
  unfold build_relay. change relay_header with 65 in F.
  replace (max_size <? len m) with false by lia.
  eexists; split; [reflexivity|]. rewrite len_cons, !len_app, !len_repeat. lia.
Qed.
Print Assumptions C31_batch_fits.

(* The same batch inside a full challenge or a transaction challenge.  The
   1 MiB bound on the snapshot is an assumption of this theorem (the model has no
   snapshot size cap); anything up to 10 MiB would close the arithmetic. *)
Theorem C31_challenge_fits : forall (txs : list (bytes * bool)) sb c ch h cs mask,
  len txs <= txs_max -> len sb <= 1048576 -> len c = key_size -> len ch = key_size ->
  len h = hash_size -> len cs = sig_size ->
  (exists m, build_full_challenge sb c ch (batch_of txs) = Ok m /\ len m + relay_header <= max_size) /\
  (exists m, build_transaction_challenge h cs mask (batch_of txs) = Ok m /\ len m + relay_header <= max_size).
Proof.
  intros txs sb c ch h cs mask Hn Hsb Hc Hch Hh Hcs. destruct (batch_payload txs Hn) as (pl & E & L).
  unfold build_full_challenge, build_transaction_challenge. rewrite E. cbn [bind]. consts.
  change relay_header with 65. change max_size with 33554432. change batch_threshold with 22369621 in L.
  split; eexists; (split; [reflexivity|]); rewrite !len_cons, !len_app, len_be_bytes; lia.
Qed.
Print Assumptions C31_challenge_fits.

(* a transaction that is not batched travels alone: within the 4 MiB envelope cap it fits *)
Theorem C31_single_fits : forall b typ, len b <= tx_max_size ->
  exists m, build_transactions [b] typ = Ok m /\ len m + relay_header <= max_size /\
    len (build_transaction b) + relay_header <= max_size.
Proof.
  intros b typ H. eexists; split; [reflexivity|]. unfold build_transaction, frame_tx. cbn [map concat].
  rewrite !len_cons, !len_app, len_be_bytes, len_nil.
  change relay_header with 65. change max_size with 33554432. change tx_max_size with 4194304 in H. lia.
Qed.
Print Assumptions C31_single_fits.

Example C31_ex_frame : exists f, encode_frame [7;8;9]%N = Ok f /\ decode_frame f = Ok (frame_version, [7;8;9]%N)
  /\ decode_frame (f ++ [1]%N) = Ok (frame_version, [7;8;9]%N) /\ encode_frame [] = Err.
Proof. eexists; split; [vm_compute; reflexivity|]. repeat split; vm_compute; reflexivity. Qed.

Example C31_ex_oversize :
  receive max_size [2;0;2;0;0;1]%N = mk_recv Err 6 0 /\ receive max_size [2;0;2;0;0;0]%N = mk_recv Err 6 33554432
  /\ receive max_size [3;0;0;0;0;1;5]%N = mk_recv Err 6 0.
Proof. repeat split; vm_compute; reflexivity. Qed.

(* five envelopes of 4 031 370 bytes are admitted; nine of them, whose 9 646-byte
   payloads pass an accounting on payload sizes, make [relay_len] panic *)
Example C31_ex_batch :
  batch_loop 0 [(4031370, true); (4031370, true); (4031370, true); (4031370, true); (4031370, true); (4031370, true); (10, true); (5, false)]
  = [true; true; true; true; true; false; false; false]
  /\ txs_msg_len [4031370; 4031370; 4031370; 4031370; 4031370] = 20156872
  /\ batch_loop 0 [(9646, true); (9646, true); (9646, true); (9646, true); (9646, true); (9646, true); (9646, true); (9646, true); (9646, true)]
     = [true; true; true; true; true; true; true; true; true]
  /\ relay_len (txs_msg_len [4031370; 4031370; 4031370; 4031370; 4031370; 4031370; 4031370; 4031370; 4031370]) = Panic.
Proof. repeat split; vm_compute; reflexivity. Qed.
