(* C13 - collective signatures verify exactly when built from valid shares.
   Property theorems, then non-vacuity examples, over the executable model Model/Cosi.v of
   crypto/cosi.go (discrete-log representation of the group, arbitrary order l,
   abstract point encoding enc and hash-to-scalar H).  The correspondence
   harness (harness/cmd/c13) runs the model against the real code. *)
From Coq Require Import List ZArith NArith Bool Znumtheory Permutation.
Require Import Mixin.Base.Res Mixin.Gen.Consts Mixin.Model.Group Mixin.Model.Aggregate Mixin.Model.Cosi.
Require Import Mixin.Proofs.Group Mixin.Proofs.Aggregate Mixin.Proofs.Cosi.
Import ListNotations.
Open Scope Z_scope.

(* Valid shares (s_i.B = R_i + c.K_i) from exactly the masked signers, given as
   a Go map in any iteration order: strict and non-strict aggregation succeed
   and the result passes FullVerify for every threshold 1..popcount.  The two
   point_ok hypotheses exclude an aggregated key / commitment equal to the
   identity, which the repository's decodePoint refuses. *)
Theorem C13_complete : forall l enc H keys rs m strict t c A, 0 < l ->
  cosi_public_key l keys c = Ok A ->
  NoDup (map fst rs) -> (forall i, In i (mask_keys (c_mask c)) <-> In i (map fst rs)) ->
  (forall i so, In (i, so) rs ->
     exists s, so = Some s /\ share_valid l keys c (H (challenge_input enc (c_r c) A m)) i s) ->
  cg l (c_r c) (zsum (map (commit_of c) (mask_keys (c_mask c)))) ->
  point_ok l A = true -> point_ok l (c_r c) = true ->
  0 < t <= Z.of_nat (length (mask_keys (c_mask c))) ->
  exists c', aggregate_response l enc H keys rs m strict c = Ok c' /\
             full_verify l enc H keys t m c' = Ok tt.
Proof. exact complete. Qed.
Print Assumptions C13_complete.

(* CosiAggregateCommitment yields the hypothesis on R: it is the sum of the
   commitments, all decodable, all indices inside the mask width. *)
Theorem C13_commitment_sum : forall l rs c, aggregate_commitment l rs = Ok c ->
  c_commits c = rs /\ c_s c = 0 /\ cg l (c_r c) (zsum (map snd rs)) /\
  Forall (fun ir => point_ok l (snd ir) = true /\ 0 <= fst ir < Consts.CosiMaskBits) rs.
Proof. exact commitment_sum. Qed.
Print Assumptions C13_commitment_sum.

(* A single response passes VerifyResponse iff its signer is masked and
   s.B = R_i + c.K_i with all three operands canonical; never a panic. *)
Theorem C13_verify_response_iff : forall l enc H keys signer s m c x,
  challenge l enc H keys m c = Ok x ->
  (verify_response l enc H keys signer (Some s) m c = Ok tt <->
   In signer (mask_keys (c_mask c)) /\ share_valid l keys c x signer s) /\
  verify_response l enc H keys signer (Some s) m c <> Panic.
Proof. exact verify_response_iff. Qed.
Print Assumptions C13_verify_response_iff.

(* Strict aggregation succeeds only if every response of the map is a valid
   share of its signer: one that does not match is rejected. *)
Theorem C13_strict_rejects : forall l enc H keys rs m c c' x,
  challenge l enc H keys m c = Ok x ->
  aggregate_response l enc H keys rs m true c = Ok c' ->
  forall i so, In (i, so) rs -> exists s, so = Some s /\ share_valid l keys c x i s.
Proof.
  intros l enc H keys rs m c c' x Hx Ha. unfold aggregate_response in Ha.
  destruct (negb (all_below _ _)); [discriminate|].
  destruct (negb (forallb _ _)); [discriminate|].
  destruct (negb (Nat.eqb _ _)); [discriminate|].
  rewrite Hx in Ha. cbn [bind] in Ha.
  destruct (share_loop l keys c x true rs 0) as [S| |] eqn:Es; [|discriminate|discriminate].
  eapply share_loop_strict_ok. exact Es.
Qed.
Print Assumptions C13_strict_rejects.

(* A mask index outside the key vector fails every operation. *)
Theorem C13_mask_index : forall l enc H keys c i,
  In i (mask_keys (c_mask c)) -> Z.of_nat (length keys) <= i ->
  (forall m, challenge l enc H keys m c = Err) /\
  (forall t m, full_verify l enc H keys t m c = Err) /\
  (forall signer s m, verify_response l enc H keys signer s m c = Err) /\
  (forall rs m strict, aggregate_response l enc H keys rs m strict c = Err) /\
  (forall priv random m, response l enc H priv random keys m c = Err).
Proof.
  intros l enc H keys c i Hi Hge. destruct (index_outside_not_ok l keys c i Hi Hge) as [E1 E2].
  assert (EA : cosi_public_key l keys c = Err) by (rewrite cosi_public_key_eq, E1; reflexivity).
  assert (EC : forall m, challenge l enc H keys m c = Err) by (intros; unfold challenge; rewrite EA; reflexivity).
  split; [exact EC|]. repeat split; intros.
  - unfold full_verify. destruct (t <=? 0); [reflexivity|].
    destruct (negb _); [reflexivity|]. rewrite EA. reflexivity.
  - unfold verify_response. destruct s; [|reflexivity]. rewrite E2. reflexivity.
  - unfold aggregate_response. rewrite E2. reflexivity.
  - unfold response. rewrite EC. reflexivity.
Qed.
Print Assumptions C13_mask_index.

(* The mask cannot name a signer twice, and only indices 0..63. *)
Theorem C13_mask_no_repeat : forall m,
  NoDup (mask_keys m) /\ forall i, In i (mask_keys m) -> 0 <= i < Z.of_nat mask_bits.
Proof. intros m. split; [apply mask_keys_nodup | apply mask_keys_range]. Qed.
Print Assumptions C13_mask_no_repeat.

(* A missing (or nil) response of a masked signer, or a response count that
   differs from the mask size (an extra response), fails aggregation. *)
Theorem C13_missing_or_extra : forall l enc H keys rs m strict c,
  (exists i, In i (mask_keys (c_mask c)) /\ resp_get rs i = None) \/
  length rs <> length (mask_keys (c_mask c)) ->
  aggregate_response l enc H keys rs m strict c = Err.
Proof.
  intros l enc H keys rs m strict c Hbad. unfold aggregate_response.
  destruct (negb (all_below _ _)); [reflexivity|].
  destruct (forallb _ _) eqn:Ef; cbn [negb]; [|reflexivity].
  destruct Hbad as [(i & Hi & Hn) | Hlen].
  - rewrite forallb_forall in Ef. specialize (Ef i Hi). rewrite Hn in Ef. discriminate.
  - destruct (Nat.eqb_spec (length (mask_keys (c_mask c))) (length rs)); [congruence | reflexivity].
Qed.
Print Assumptions C13_missing_or_extra.

(* A threshold that is not positive or exceeds the number of masked signers fails. *)
Theorem C13_threshold : forall l enc H keys t m c,
  t <= 0 \/ Z.of_nat (length (mask_keys (c_mask c))) < t -> full_verify l enc H keys t m c = Err.
Proof.
  intros l enc H keys t m c Ht. unfold full_verify, threshold_verify.
  destruct Ht as [Ht|Ht]; [apply Z.leb_le in Ht; rewrite Ht; reflexivity|].
  destruct (t <=? 0); [reflexivity|]. apply Z.leb_gt in Ht. rewrite Ht. reflexivity.
Qed.
Print Assumptions C13_threshold.


(* The mask is the index set of the commitments map: for a Go map (association
   list with distinct keys) accepted by CosiAggregateCommitment, bit n of the
   mask is set iff n is a key of the map, Keys() lists exactly those indexes,
   popcount = number of commitments, and every iteration order of the map
   yields the same mask (and the same aggregated commitment). *)
Theorem C13_mask_is_index_set : forall l rs c,
  aggregate_commitment l rs = Ok c -> NoDup (map fst rs) ->
  (forall n, N.testbit (c_mask c) n = has_index n (map fst rs)) /\
  (forall i, In i (mask_keys (c_mask c)) <-> In i (map fst rs)) /\
  length (mask_keys (c_mask c)) = length rs /\
  (forall rs', Permutation rs rs' ->
     exists c', aggregate_commitment l rs' = Ok c' /\ c_mask c' = c_mask c /\ cg l (c_r c') (c_r c)).
Proof.
  intros l rs c Hc Hnd. destruct (commitment_mask l rs c Hc Hnd) as (H1 & H2 & H3).
  repeat split; try assumption; try apply H2.
  intros rs' HP. exact (commitment_perm l rs rs' c Hc Hnd HP).
Qed.
Print Assumptions C13_mask_is_index_set.

(* End to end: commitments aggregated by CosiAggregateCommitment, valid shares
   from exactly those signers: aggregation and FullVerify succeed.  The
   hypotheses of C13_complete on the mask and on R are discharged. *)
Theorem C13_complete_from_commitments : forall l enc H keys cm rs m strict t c A, 0 < l ->
  aggregate_commitment l cm = Ok c -> NoDup (map fst cm) ->
  cosi_public_key l keys c = Ok A ->
  NoDup (map fst rs) -> (forall i, In i (map fst cm) <-> In i (map fst rs)) ->
  (forall i so, In (i, so) rs ->
     exists s, so = Some s /\ share_valid l keys c (H (challenge_input enc (c_r c) A m)) i s) ->
  point_ok l A = true -> point_ok l (c_r c) = true -> 0 < t <= Z.of_nat (length cm) ->
  exists c', aggregate_response l enc H keys rs m strict c = Ok c' /\
             full_verify l enc H keys t m c' = Ok tt.
Proof.
  intros l enc H keys cm rs m strict t c A Hl Hc Hnd HA Hnd' Hset Hv HpA HpR Ht.
  destruct (commitment_mask l cm c Hc Hnd) as (_ & Hmk & Hlen).
  apply (complete l enc H keys rs m strict t c A Hl HA Hnd'); try assumption.
  - intros i. rewrite Hmk. apply Hset.
  - exact (commitment_wf l cm c Hc Hnd).
  - rewrite Hlen. exact Ht.
Qed.
Print Assumptions C13_complete_from_commitments.

(* The two side conditions of completeness, explained: the aggregated key
   (commitment) is the identity exactly when the discrete logs of the masked
   keys (commitments) sum to 0 mod l ... *)
Theorem C13_identity_iff : forall l xs, 0 < l ->
  (point_ok l (fsum l xs) = false <-> cg l (zsum xs) 0).
Proof. exact sum_identity_iff. Qed.
Print Assumptions C13_identity_iff.

(* ... and then FullVerify refuses the signature for every threshold, valid
   shares or not (decodePoint refuses the identity as a key and as R). *)
Theorem C13_identity_rejected : forall l enc H keys t m c A,
  cosi_public_key l keys c = Ok A ->
  point_ok l A = false \/ point_ok l (c_r c) = false ->
  full_verify l enc H keys t m c = Err.
Proof.
  intros l enc H keys t m c A HA Hid. unfold full_verify.
  destruct (t <=? 0); [reflexivity|]. destruct (negb _); [reflexivity|].
  rewrite HA. cbn [bind]. unfold schnorr_verify, verify_with_challenge.
  destruct Hid as [E|E]; rewrite E; [reflexivity|]. rewrite andb_false_r. reflexivity.
Qed.
Print Assumptions C13_identity_rejected.

(* Non-vacuity over l = 13 with a toy encoding and hash: three keys, signers 0 and 2. *)
Definition ex_enc (p : Z) : N := Z.to_N (p + 100).
Definition ex_H (b : list N) : Z := Z.of_N (fold_left (fun acc x => (acc * 7 + x + 3) mod 13)%N b 5%N).

Example C13_ex_flow :
  let keys := [3; 5; 11] in
  match aggregate_commitment 13 [(2, 4); (0, 7)] with
  | Ok c =>
      match response 13 ex_enc ex_H 3 7 keys 9%N c, response 13 ex_enc ex_H 11 4 keys 9%N c with
      | Ok s0, Ok s2 =>
          match aggregate_response 13 ex_enc ex_H keys [(2, Some s2); (0, Some s0)] 9%N true c with
          | Ok c' =>
              [full_verify 13 ex_enc ex_H keys 2 9%N c'; full_verify 13 ex_enc ex_H keys 3 9%N c';
               full_verify 13 ex_enc ex_H keys 0 9%N c'; full_verify 13 ex_enc ex_H [3; 5] 2 9%N c';
               verify_response 13 ex_enc ex_H keys 0 (Some s0) 9%N c;
               verify_response 13 ex_enc ex_H keys 0 (Some ((s0 + 1) mod 13)) 9%N c;
               rmap (fun _ => tt) (aggregate_response 13 ex_enc ex_H keys [(2, Some s2); (0, Some ((s0 + 1) mod 13))] 9%N true c);
               rmap (fun _ => tt) (aggregate_response 13 ex_enc ex_H keys [(2, Some s2)] 9%N false c);
               rmap (fun _ => tt) (aggregate_response 13 ex_enc ex_H keys [(2, Some s2); (0, Some s0); (1, Some 1)] 9%N false c)]
              = [Ok tt; Err; Err; Err; Ok tt; Err; Err; Err; Err] /\ c_mask c = 5%N
          | _ => False
          end
      | _, _ => False
      end
  | _ => False
  end.
Proof. vm_compute. split; reflexivity. Qed.

(* keys 3 and 10 = -3 mod 13: the aggregated key is the identity, every share is
   valid, strict aggregation succeeds, FullVerify refuses; mask bits = map keys
   in either iteration order *)
Example C13_ex_identity_key :
  let keys := [3; 10] in
  match aggregate_commitment 13 [(1, 4); (0, 7)], aggregate_commitment 13 [(0, 7); (1, 4)] with
  | Ok c, Ok c2 =>
      match response 13 ex_enc ex_H 3 7 keys 9%N c, response 13 ex_enc ex_H 10 4 keys 9%N c with
      | Ok s0, Ok s1 =>
          match aggregate_response 13 ex_enc ex_H keys [(0, Some s0); (1, Some s1)] 9%N true c with
          | Ok c' => full_verify 13 ex_enc ex_H keys 1 9%N c' = Err /\ cosi_public_key 13 keys c = Ok 0
                     /\ c_mask c = 3%N /\ c_mask c2 = 3%N /\ c_r c = c_r c2
          | _ => False
          end
      | _, _ => False
      end
  | _, _ => False
  end.
Proof. vm_compute. repeat split; reflexivity. Qed.
