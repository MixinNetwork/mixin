(* C30 - peer authentication binds identity, recipient, freshness and role.
   Property theorems, then non-vacuity examples, over the executable model Model/Auth.v of
   kernel/node.go:AuthenticateAs, which harness/cmd/c30 runs against the real
   function.  The hash of the signed bytes [Hmsg] (BLAKE3), the derivation of a
   peer id from a spend key [peer_id] and signature verification [verify] are
   universally quantified. *)
From Coq Require Import List ZArith NArith Bool.
Require Import Mixin.Base.Res Mixin.Gen.Consts Mixin.Model.Auth Mixin.Proofs.Auth.
Import ListNotations.
Open Scope Z_scope.

(* the byte layout the statements below refer to: time[0,8) recipient[8,40)
   key[40,72) relayer flag[72] signature[73,137) *)
Theorem C30_layout :
  ts_size = 8%nat /\ off_rcp = 8%nat /\ off_key = 40%nat /\ off_flag = 72%nat /\
  off_sig = 73%nat /\ msg_len = 137%nat.
Proof. exact layout. Qed.
Print Assumptions C30_layout.

(* Accepted exactly when: 137 bytes, addressed to the receiver, inside the
   allowed skew (when a timeout is given), not from the receiver itself, and
   signed - over the first 73 bytes, which include the relayer flag - by the key
   the message names.  [now] ranges over every clock second below 2^52 (year
   142 million), the timestamp over all 64-bit values. *)
Theorem C30_accept_iff : forall (Hmsg : list N -> N) (peer_id : N -> N -> N) (verify : N -> N -> N -> bool)
    net rcp msg timeout now,
  0 <= now < 2 ^ 52 -> timeout < 2 ^ 52 ->
  ((exists tok, authenticate Hmsg peer_id verify net rcp msg timeout now = Ok tok) <->
   (length msg = msg_len /\
    msg_rcp msg = rcp /\
    (0 < timeout -> Z.abs (now - msg_ts msg) <= timeout) /\
    peer_id net (msg_key msg) <> rcp /\
    verify (msg_key msg) (Hmsg (msg_signed msg)) (msg_sig msg) = true)).
Proof.
  intros Hmsg peer_id verify net rcp msg timeout now Hn Ht.
  assert (Hts : 0 <= msg_ts msg) by apply N2Z.is_nonneg.
  rewrite <- (skew_ok_iff now (msg_ts msg) timeout Hn Hts Ht). split.
  - intros [tok H]. apply auth_ok_iff_raw in H. tauto.
  - intros (H1 & H3 & H2 & H4 & H5). eexists. apply auth_ok_iff_raw. repeat split; eassumption.
Qed.
Print Assumptions C30_accept_iff.

(* The token: identity derived from the key in the message (never the
   receiver's), the message's time and flag, the message itself. *)
Theorem C30_token : forall (Hmsg : list N -> N) (peer_id : N -> N -> N) (verify : N -> N -> N -> bool)
    net rcp msg timeout now tok,
  authenticate Hmsg peer_id verify net rcp msg timeout now = Ok tok ->
  t_peer tok = peer_id net (msg_key msg) /\ t_ts tok = msg_ts msg /\
  t_relayer tok = msg_flag msg /\ t_data tok = msg /\ t_peer tok <> rcp.
Proof.
  intros Hmsg peer_id verify net rcp msg timeout now tok H. apply auth_ok_iff_raw in H.
  destruct H as (_ & _ & _ & H4 & _ & ->). cbn. repeat split. exact H4.
Qed.
Print Assumptions C30_token.

(* The model returns a token or an error on every input.  Its [slice] is total,
   so this holds by the shape of the model; in kernel/node.go the slice
   expressions all come after the check len(msg) != 137. *)
Theorem C30_no_panic : forall (Hmsg : list N -> N) (peer_id : N -> N -> N) (verify : N -> N -> N -> bool)
    net rcp msg timeout now,
  authenticate Hmsg peer_id verify net rcp msg timeout now <> Panic.
Proof. intros. rewrite auth_eq. destruct (_ && _); discriminate. Qed.
Print Assumptions C30_no_panic.

(* The float64 comparison of the code is the exact integer comparison. *)
Theorem C30_skew_exact : forall now ts timeout,
  0 <= now < 2 ^ 52 -> 0 <= ts -> 0 <= timeout < 2 ^ 52 ->
  skew_exceeds now ts timeout = (timeout <? Z.abs (now - ts)).
Proof. exact skew_exact. Qed.
Print Assumptions C30_skew_exact.

(* The relayer flag lies inside the signed bytes: two accepted messages that
   differ only in that byte have the same key and signature, and that one
   signature verifies for the hashes of two different byte strings. *)
Theorem C30_flag_bound : forall (Hmsg : list N -> N) (peer_id : N -> N -> N) (verify : N -> N -> N -> bool)
    net rcp timeout now pre suf f1 f2 t1 t2,
  length pre = off_flag -> f1 <> f2 ->
  authenticate Hmsg peer_id verify net rcp (pre ++ f1 :: suf) timeout now = Ok t1 ->
  authenticate Hmsg peer_id verify net rcp (pre ++ f2 :: suf) timeout now = Ok t2 ->
  let k := msg_key (pre ++ f1 :: suf) in
  let s := msg_sig (pre ++ f1 :: suf) in
  msg_key (pre ++ f2 :: suf) = k /\ msg_sig (pre ++ f2 :: suf) = s /\
  t_peer t1 = t_peer t2 /\
  msg_signed (pre ++ f1 :: suf) = pre ++ [f1] /\ msg_signed (pre ++ f2 :: suf) = pre ++ [f2] /\
  pre ++ [f1] <> pre ++ [f2] /\
  verify k (Hmsg (pre ++ [f1])) s = true /\ verify k (Hmsg (pre ++ [f2])) s = true.
Proof.
  intros Hmsg peer_id verify net rcp timeout now pre suf f1 f2 t1 t2 Lpre Hne A1 A2 k s.
  apply auth_ok_iff_raw in A1, A2.
  destruct A1 as (_ & _ & _ & _ & V1 & ->). destruct A2 as (_ & _ & _ & _ & V2 & ->).
  unfold k, s. rewrite (flag_signed pre suf f1 Lpre) in *. rewrite (flag_signed pre suf f2 Lpre) in *.
  rewrite (flag_key pre suf f1 Lpre), (flag_sig pre suf f1 Lpre) in *.
  rewrite (flag_key pre suf f2 Lpre), (flag_sig pre suf f2 Lpre) in *. cbn [t_peer].
  repeat split; try assumption.
  intro E. apply app_inv_head in E. injection E as E. contradiction.
Qed.
Print Assumptions C30_flag_bound.

(* Hence, if one signature never verifies for two different signed byte
   strings (unforgeability + collision-freedom, a hypothesis on the
   primitives), nothing under the signature can be changed: same key and
   signature => same time, recipient, key and flag bytes ... *)
Theorem C30_signed_bytes_bound : forall (Hmsg : list N -> N) (peer_id : N -> N -> N) (verify : N -> N -> N -> bool),
  (forall k a b s, verify k (Hmsg a) s = true -> verify k (Hmsg b) s = true -> a = b) ->
  forall net rcp m1 m2 timeout1 now1 timeout2 now2 t1 t2,
  authenticate Hmsg peer_id verify net rcp m1 timeout1 now1 = Ok t1 ->
  authenticate Hmsg peer_id verify net rcp m2 timeout2 now2 = Ok t2 ->
  msg_key m1 = msg_key m2 -> msg_sig m1 = msg_sig m2 ->
  msg_signed m1 = msg_signed m2.
Proof.
  intros Hmsg peer_id verify sig_binds net rcp m1 m2 to1 n1 to2 n2 t1 t2 A1 A2 Hk Hs.
  apply auth_ok_iff_raw in A1, A2.
  destruct A1 as (_ & _ & _ & _ & V1 & _). destruct A2 as (_ & _ & _ & _ & V2 & _).
  rewrite Hk, Hs in V1. exact (sig_binds _ _ _ _ V1 V2).
Qed.
Print Assumptions C30_signed_bytes_bound.

(* ... in particular the relayer flag of an accepted message cannot be flipped. *)
Theorem C30_flag_cannot_flip : forall (Hmsg : list N -> N) (peer_id : N -> N -> N) (verify : N -> N -> N -> bool),
  (forall k a b s, verify k (Hmsg a) s = true -> verify k (Hmsg b) s = true -> a = b) ->
  forall net rcp timeout now timeout' now' pre suf f1 f2 t1,
  length pre = off_flag -> f1 <> f2 ->
  authenticate Hmsg peer_id verify net rcp (pre ++ f1 :: suf) timeout now = Ok t1 ->
  forall t2, authenticate Hmsg peer_id verify net rcp (pre ++ f2 :: suf) timeout' now' <> Ok t2.
Proof.
  intros Hmsg peer_id verify sig_binds net rcp timeout now timeout' now' pre suf f1 f2 t1 Lpre Hne A1 t2 A2.
  pose proof (C30_signed_bytes_bound Hmsg peer_id verify sig_binds _ _ _ _ _ _ _ _ _ _ A1 A2) as E.
  rewrite (flag_key pre suf f1 Lpre), (flag_sig pre suf f1 Lpre), (flag_signed pre suf f1 Lpre) in E.
  rewrite (flag_key pre suf f2 Lpre), (flag_sig pre suf f2 Lpre), (flag_signed pre suf f2 Lpre) in E.
  specialize (E eq_refl eq_refl). apply app_inv_head in E. injection E as E. contradiction.
Qed.
Print Assumptions C30_flag_cannot_flip.

(* Non-vacuity: a concrete instance of the primitives satisfying the binding
   hypothesis, an accepted message, and its rejected variants. *)
Example C30_ex_accept :
  authenticate ex_H ex_peer ex_verify 1%N 5%N (ex_msg 1%N) 10 3
    = Ok (mk_token 109%N 0 true (ex_msg 1%N))
  /\ authenticate ex_H ex_peer ex_verify 1%N 5%N (ex_msg 0%N) 10 3 = Err      (* flag flipped *)
  /\ authenticate ex_H ex_peer ex_verify 1%N 5%N (ex_msg 1%N) 10 10 = Ok (mk_token 109%N 0 true (ex_msg 1%N))
  /\ authenticate ex_H ex_peer ex_verify 1%N 5%N (ex_msg 1%N) 10 11 = Err     (* one second late *)
  /\ authenticate ex_H ex_peer ex_verify 1%N 5%N (ex_msg 1%N) 0 1000 = Ok (mk_token 109%N 0 true (ex_msg 1%N))
  /\ authenticate ex_H ex_peer ex_verify 1%N 6%N (ex_msg 1%N) 10 3 = Err      (* other recipient *)
  /\ authenticate ex_H (fun _ _ => 5%N) ex_verify 1%N 5%N (ex_msg 1%N) 10 3 = Err  (* self *)
  /\ authenticate ex_H ex_peer ex_verify 1%N 5%N (ex_msg 1%N ++ [0%N]) 10 3 = Err  (* 138 bytes *)
  /\ length ex_pre = off_flag.
Proof. vm_compute. repeat split. Qed.
Example C30_ex_binding : forall k a b s,
  ex_verify k (ex_H a) s = true -> ex_verify k (ex_H b) s = true -> a = b.
Proof.
  intros k a b s Ha Hb. unfold ex_verify, ex_H in *.
  destruct (ex_bytes_eqb a (ex_pre ++ [1%N])) eqn:Ea; [|rewrite andb_false_r in Ha; discriminate].
  destruct (ex_bytes_eqb b (ex_pre ++ [1%N])) eqn:Eb; [|rewrite andb_false_r in Hb; discriminate].
  apply ex_bytes_eqb_eq in Ea, Eb. congruence.
Qed.
Example C30_ex_float : round53 (2 ^ 53 + 1) = 2 ^ 53 /\ round53 (2 ^ 53 + 3) = 2 ^ 53 + 4
  /\ round53 (2 ^ 64 - 1) = 2 ^ 64 /\ skew_exceeds (2 ^ 53 + 1) (2 ^ 53) 0 = false.
Proof. vm_compute. repeat split. Qed.
