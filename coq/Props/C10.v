(* C10 - any two threshold certificates share more than a third of the signer
   set; below the minimum membership no certificate can meet the threshold.
   Property theorems, then non-vacuity examples, over lemmas of Proofs/Quorum.v about the
   executable model Model/Quorum.v (+ Model/Election.v for the membership view),
   which harness/cmd/c10 runs against the real ConsensusThreshold /
   ConsensusKeys / verifyFinalization.

   Vocabulary: [all] is the membership history as the node holds it (any list of
   records; [load recs] is what LoadConsensusNodes builds), [cfg] the epoch,
   network and genesis set, [ts] the snapshot timestamp, [pledging] the identity
   of the chain when it is a pledging chain (no state yet), [round] the snapshot
   round.  A certificate's signers are a duplicate-free list of ids taken from
   the key vector; [inter S1 S2] are the common signers.
   [ts_in_range all]: every record timestamp t satisfies 0 <= t and
   t + accept-period < 2^64 (true of every nanosecond timestamp before year 2554;
   outside it the uint64 additions of ConsensusReady wrap). *)
From Coq Require Import List ZArith NArith Bool Permutation.
Require Import Mixin.Base.Res Mixin.Gen.Consts Mixin.Model.Election Mixin.Model.Quorum Mixin.Proofs.Election Mixin.Proofs.Quorum.
Import ListNotations.
Open Scope Z_scope.

(* Effective base below the minimum: the threshold is the sentinel 1000, which
   no mask of at most 64 bits meets and no duplicate-free signer list drawn
   from the key vector reaches (whatever the chain and round). *)
Theorem C10_below_minimum : forall cfg all ts final,
  consensus_base cfg all ts final < Consts.QMinNodes ->
  consensus_threshold cfg all ts final = invalid_threshold /\
  (forall mask, (mask < 2 ^ 64)%N -> mask_meets mask (consensus_threshold cfg all ts final) = false) /\
  (final = true -> ts_in_range all -> forall pledging round s, NoDup s ->
     incl s (consensus_keys cfg all pledging round ts) ->
     Z.of_nat (length s) < consensus_threshold cfg all ts final).
Proof. exact below_minimum. Qed.
Print Assumptions C10_below_minimum.

(* The threshold is the code's formula over the effective base. *)
Theorem C10_threshold_formula : forall cfg all ts final,
  (consensus_base cfg all ts final < Consts.QMinNodes /\
   consensus_threshold cfg all ts final = invalid_threshold) \/
  (Consts.QMinNodes <= consensus_base cfg all ts final /\
   consensus_threshold cfg all ts final = consensus_base cfg all ts final * 2 / 3 + 1).
Proof. exact threshold_cases. Qed.
Print Assumptions C10_threshold_formula.

(* Outside round 0 of a pledging chain the key vector is never longer than the
   base the threshold is computed from ... *)
Theorem C10_keys_within_base : forall cfg all pledging round ts,
  ts_in_range all -> ~ round0_pledging pledging round ->
  Z.of_nat (length (consensus_keys cfg all pledging round ts)) <= consensus_base cfg all ts true.
Proof. exact keys_le_base. Qed.
Print Assumptions C10_keys_within_base.

(* ... hence for every history, timestamp, chain and round other than a
   pledging chain's round 0, two signer sets meeting the threshold share more
   than a third of the key vector (the statement over lists, not only sizes). *)
Theorem C10_intersection : forall cfg all pledging round ts,
  ts_in_range all -> ~ round0_pledging pledging round ->
  forall S1 S2, NoDup S1 -> NoDup S2 ->
    incl S1 (consensus_keys cfg all pledging round ts) ->
    incl S2 (consensus_keys cfg all pledging round ts) ->
    consensus_threshold cfg all ts true <= Z.of_nat (length S1) ->
    consensus_threshold cfg all ts true <= Z.of_nat (length S2) ->
    (length (consensus_keys cfg all pledging round ts) < 3 * length (inter S1 S2))%nat.
Proof.
  intros cfg all pledging round ts Hr Hn S1 S2 N1 N2 I1 I2 L1 L2.
  apply (quorum_intersection _ _ _ (consensus_threshold cfg all ts true)); auto using keys_supermajority.
Qed.
Print Assumptions C10_intersection.

(* The same for every (key vector, threshold) pair verifyFinalization may check
   a certificate against, including the pre-fork legacy retry. *)
Theorem C10_intersection_verify : forall cfg all pledging round ts p,
  ts_in_range all -> ~ round0_pledging pledging round ->
  In p (verify_params cfg all pledging round ts) ->
  forall S1 S2, NoDup S1 -> NoDup S2 -> incl S1 (fst p) -> incl S2 (fst p) ->
    snd p <= Z.of_nat (length S1) -> snd p <= Z.of_nat (length S2) ->
    (length (fst p) < 3 * length (inter S1 S2))%nat.
Proof.
  intros cfg all pledging round ts p Hr Hn Hin. apply verify_params_in in Hin. destruct Hin as [t ->].
  apply C10_intersection; assumption.
Qed.
Print Assumptions C10_intersection_verify.

Theorem C10_inter_is_intersection : forall x S1 S2, In x (inter S1 S2) <-> In x S1 /\ In x S2.
Proof. intros. unfold inter. rewrite filter_In, mem_in. tauto. Qed.
Print Assumptions C10_inter_is_intersection.

(* Recorded finding F4: at round 0 of a pledging chain the key vector is the
   ready nodes plus the pledging node while the threshold is computed from the
   base without it.  Witness: 7 genesis nodes, one pledging node, its accept
   time: 8 keys, threshold 5, two certificates sharing 2 signers, 3*2 <= 8. *)
Theorem C10_round0_refuted :
  exists cfg recs ci ts S1 S2,
    let all := load recs in
    let ks := consensus_keys cfg all (Some ci) 0 ts in
    let t := consensus_threshold cfg all ts true in
    ts_in_range all /\ pledging_node all ts = Some ci /\
    consensus_base cfg all ts true = 7 /\ length ks = 8%nat /\ t = 5 /\
    NoDup S1 /\ NoDup S2 /\ incl S1 ks /\ incl S2 ks /\
    t <= Z.of_nat (length S1) /\ t <= Z.of_nat (length S2) /\
    (3 * length (inter S1 S2) <= length ks)%nat.
Proof.
  exists f4_cfg, f4_recs, f4_pledger, f4_ts, f4_s1, f4_s2. exact round0_refuted.
Qed.
Print Assumptions C10_round0_refuted.

(* Outside the finding: at round 0 of a pledging chain the bound still holds
   whenever 2*base is a multiple of 3, or the key vector is not longer than
   the base (some counted node is not yet ready). *)
Theorem C10_round0_outside : forall cfg all ci ts,
  ts_in_range all ->
  Consts.QMinNodes <= consensus_base cfg all ts true ->
  (2 * consensus_base cfg all ts true) mod 3 = 0 \/
  Z.of_nat (length (consensus_keys cfg all (Some ci) 0 ts)) <= consensus_base cfg all ts true ->
  forall S1 S2, NoDup S1 -> NoDup S2 ->
    incl S1 (consensus_keys cfg all (Some ci) 0 ts) ->
    incl S2 (consensus_keys cfg all (Some ci) 0 ts) ->
    consensus_threshold cfg all ts true <= Z.of_nat (length S1) ->
    consensus_threshold cfg all ts true <= Z.of_nat (length S2) ->
    (length (consensus_keys cfg all (Some ci) 0 ts) < 3 * length (inter S1 S2))%nat.
Proof.
  intros cfg all ci ts Hr Hb Hc S1 S2 N1 N2 I1 I2 L1 L2.
  apply (quorum_intersection _ _ _ (consensus_threshold cfg all ts true)); auto using round0_supermajority.
Qed.
Print Assumptions C10_round0_outside.

(* At round 0 the key vector exceeds the base by at most the pledging node. *)
Theorem C10_round0_one_extra_key : forall cfg all pledging round ts,
  ts_in_range all ->
  Z.of_nat (length (consensus_keys cfg all pledging round ts)) <= consensus_base cfg all ts true + 1.
Proof. exact keys_le_base_plus_one. Qed.
Print Assumptions C10_round0_one_extra_key.

(* The constants the argument uses (and under which the "should never be here"
   panics of ConsensusThreshold are unreachable), from the regenerated Consts. *)
Theorem C10_constants :
  0 <= reference_window /\ reference_window <= Consts.QAcceptPeriodMinimum /\
  reference_window <= 3 * Consts.QMinute /\ Consts.QHour <= Consts.QAcceptPeriodMinimum /\
  0 <= Consts.QMinNodes <= 64 /\ 64 < invalid_threshold.
Proof. exact consts_sane. Qed.
Print Assumptions C10_constants.

(* The threshold and the key vector do not depend on the order in which the
   node received the records.  LoadConsensusNodes reads them with
   storage.ReadAllNodes(_, true), in the store's key order, and re-sorts by
   (timestamp, id).  The store keys a record by (timestamp, signer) and the id is
   derived from the signer, so the (timestamp, id) pairs are pairwise distinct
   ([distinct_keys]); that is the only hypothesis. *)
Theorem C10_views_order_independent : forall cfg recs recs' pledging round ts final,
  Permutation recs recs' -> distinct_keys recs ->
  consensus_threshold cfg (load recs) ts final = consensus_threshold cfg (load recs') ts final /\
  consensus_keys cfg (load recs) pledging round ts = consensus_keys cfg (load recs') pledging round ts /\
  removing_at cfg (load recs) ts = removing_at cfg (load recs') ts /\
  verify_params cfg (load recs) pledging round ts = verify_params cfg (load recs') pledging round ts.
Proof.
  intros cfg recs recs' pledging round ts final Hp Hd. rewrite (load_perm recs recs' Hp Hd). repeat split.
Qed.
Print Assumptions C10_views_order_independent.

(* 9 genesis nodes, an established chain: hypotheses of C10_intersection hold,
   9 keys, threshold 7, two concrete certificates share 5 > 9/3 signers. *)
Definition ex_recs : list nrec := map (fun i => mkrec i f4_epoch Accepted i) [1; 2; 3; 4; 5; 6; 7; 8; 9]%N.
Definition ex_cfg : netcfg := mkcfg f4_epoch true [1; 2; 3; 4; 5; 6; 7; 8; 9]%N.
Example C10_ex_intersection :
  let all := load ex_recs in
  let ts := f4_epoch + 5 * Consts.QOneDay in
  forallb (fun r => (0 <=? r_ts r) && (r_ts r + Consts.QAcceptPeriodMinimum <? two64)) all = true /\
  consensus_keys ex_cfg all None 1 ts = [1; 2; 3; 4; 5; 6; 7; 8; 9]%N /\
  consensus_threshold ex_cfg all ts true = 7 /\
  inter [1; 2; 3; 4; 5; 6; 7]%N [3; 4; 5; 6; 7; 8; 9]%N = [3; 4; 5; 6; 7]%N.
Proof. vm_compute. repeat split. Qed.

(* inside the operation window of day 5 the oldest node is excluded on both
   sides: 8 keys, base 8, threshold 6 *)
Example C10_ex_window :
  let all := load ex_recs in
  let ts := f4_epoch + 5 * Consts.QOneDay + 14 * Consts.QHour in
  option_map r_id (removing_at ex_cfg all ts) = Some 1%N /\
  consensus_keys (mkcfg f4_epoch false (c_genesis ex_cfg)) all None 1 ts = [2; 3; 4; 5; 6; 7; 8; 9]%N /\
  consensus_base (mkcfg f4_epoch false (c_genesis ex_cfg)) all ts true = 8 /\
  consensus_threshold (mkcfg f4_epoch false (c_genesis ex_cfg)) all ts true = 6.
Proof. vm_compute. repeat split. Qed.

(* below the minimum: 6 nodes, threshold 1000, the full mask does not meet it *)
Example C10_ex_below :
  let all := load (firstn 6 ex_recs) in
  consensus_base ex_cfg all (f4_epoch + Consts.QOneDay) true = 6 /\
  consensus_threshold ex_cfg all (f4_epoch + Consts.QOneDay) true = 1000 /\
  mask_meets (2 ^ 64 - 1)%N 1000 = false /\ mask_meets (2 ^ 64 - 1)%N 64 = true.
Proof. vm_compute. repeat split. Qed.

(* round 0 outside the finding: base 9 (2*9 mod 3 = 0), 10 keys, threshold 7 *)
Example C10_ex_round0_outside :
  let all := load (ex_recs ++ [mkrec 10 (f4_epoch + 100 * Consts.QOneDay) Pledging 10]) in
  let ts := f4_epoch + 100 * Consts.QOneDay + 13 * Consts.QHour in
  consensus_base ex_cfg all ts true = 9 /\ (2 * 9) mod 3 = 0 /\
  length (consensus_keys ex_cfg all (Some (mkrec 10 (f4_epoch + 100 * Consts.QOneDay) Pledging 10)) 0 ts) = 10%nat /\
  consensus_threshold ex_cfg all ts true = 7.
Proof. vm_compute. repeat split. Qed.

(* order independence on a concrete history: distinct keys, reversed order *)
Example C10_ex_order :
  distinct_keys f4_recs /\ Permutation f4_recs (rev f4_recs) /\
  consensus_keys f4_cfg (load (rev f4_recs)) (Some f4_pledger) 0 f4_ts = [1; 2; 3; 4; 5; 6; 7; 8]%N /\
  consensus_threshold f4_cfg (load (rev f4_recs)) f4_ts true = 5.
Proof.
  split; [apply distinct_keysb_sound; vm_compute; reflexivity|].
  split; [apply Permutation_rev|]. vm_compute. split; reflexivity.
Qed.
