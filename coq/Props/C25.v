(* C25 - mint schedule and distribution are bounded, exact and work-monotone.
   Property theorems about the executable model Model/Mint.v, which the
   correspondence harness (harness/cmd/c25) runs against kernel/mint.go on
   every batch up to and beyond the horizon and on random work vectors; the
   lemmas they rest on are in Proofs/Mint.v.

   Amounts are in units of 10^-8 XIN.  Parameters of the property:
     first_batch = 1707, horizon = 53654 (last batch of year 146; its amount
     is 2858 units >= guard_a0 = 2800, batch 53655 has 2572), the schedule
     is total up to last_total_batch = 104024, zero from first_zero_batch =
     81030, and mintBatchSize itself panics from batch 104025 on. *)
From Coq Require Import List ZArith NArith Bool Lia ZifyBool.
Require Import Mixin.Base.Res Mixin.Model.Fixed Mixin.Model.Mint.
Require Import Mixin.Proofs.Lists Mixin.Proofs.Mint.
Import ListNotations.
Open Scope Z_scope.

(* in this file [lia] also knows floor division and remainder *)
Local Ltac Zify.zify_post_hook ::= Z.to_euclidean_division_equations.

(* Per-batch amounts never increase - for ALL batches on which mintBatchSize
   returns, not only inside the horizon. *)
Theorem C25_nonincreasing : forall b1 b2 a1 a2, 0 <= b1 <= b2 ->
  mint_batch_size b1 = Ok a1 -> mint_batch_size b2 = Ok a2 -> 0 <= a2 <= a1.
Proof.
  intros b1 b2 a1 a2 [_ Hb] H1 H2. destruct (mint_batch_size_le _ _ b1 H2 Hb) as (a & Ha & Hle).
  rewrite H1 in Ha. injection Ha as <-. split; [exact (batch_size_of_year_nonneg _ _ H2)|exact Hle].
Qed.
Print Assumptions C25_nonincreasing.

(* mintBatchSize returns on every batch up to 104024 ... *)
Theorem C25_schedule_total : forall b, 0 <= b <= last_total_batch ->
  exists a, mint_batch_size b = Ok a /\ 0 <= a.
Proof. intros b [_ Hb]. exact (mint_batch_size_le _ _ b size_at_last Hb). Qed.
Print Assumptions C25_schedule_total.

(* ... and panics (pool.Sub(0)) on every later batch: what happens beyond the horizon. *)
Theorem C25_schedule_panics_after : forall b, last_total_batch < b -> mint_batch_size b = Panic.
Proof. intros b Hb. apply (mint_batch_size_panic_mono _ _ size_after_last). lia. Qed.
Print Assumptions C25_schedule_panics_after.

Theorem C25_schedule_zero_tail : forall b, first_zero_batch <= b <= last_total_batch ->
  mint_batch_size b = Ok 0.
Proof. intros b. exact (mint_batch_size_between _ _ _ _ size_at_zero size_at_last). Qed.
Print Assumptions C25_schedule_zero_tail.

(* Every batch of the horizon is at least the positivity guard, and the horizon is sharp. *)
Theorem C25_horizon_guard : forall b, 0 <= b <= horizon ->
  exists a, mint_batch_size b = Ok a /\ guard_a0 <= a.
Proof.
  intros b [_ Hb]. destruct (mint_batch_size_le _ _ b size_at_horizon Hb) as (a & Ha & Hle).
  exists a. split; [assumption|]. unfold guard_a0. lia.
Qed.
Print Assumptions C25_horizon_guard.

Theorem C25_horizon_sharp : exists a, mint_batch_size (horizon + 1) = Ok a /\ a < guard_a0.
Proof. exists 2572. split; [exact size_after_horizon|reflexivity]. Qed.
Print Assumptions C25_horizon_sharp.

(* The cumulative total never exceeds the pool: the sum of ANY run of n
   consecutive batch amounts starting at any batch i (in particular batches
   1..B for every B; a panicking batch counts 0) is within MintPool.
   Telescoping over the years. *)
Theorem C25_cumulative : forall n i, 0 <= i -> 0 <= sum_sizes n i <= mint_pool.
Proof.
  intros n i Hi. pose proof (sum_sizes_nonneg n i). pose proof (sum_sizes_rest n i Hi).
  pose proof (rest_bounds (i + Z.of_nat n)). pose proof (rest_bounds i Hi). lia.
Qed.
Print Assumptions C25_cumulative.

Theorem C25_cumulative_multi : forall old batch s, 0 <= old ->
  mint_multi old batch = Ok s -> 0 < s <= mint_pool.
Proof.
  intros old batch s Hold H. destruct (mint_multi_first _ _ _ H) as (a & _ & Ha).
  apply mint_multi_sum in H as (_ & -> & _).
  pose proof (C25_cumulative (Z.to_nat (batch - old)) (old + 1)). lia.
Qed.
Print Assumptions C25_cumulative_multi.

(* A multi-batch mint is the sum of its batches; it returns exactly when every
   batch in (old, batch] returns a positive amount (amount.Add(0) panics). *)
Theorem C25_multi_sum : forall old batch s,
  mint_multi old batch = Ok s <->
  old < batch /\ s = sum_sizes (Z.to_nat (batch - old)) (old + 1) /\
  (forall i, old < i <= batch -> exists a, mint_batch_size i = Ok a /\ 0 < a).
Proof. exact mint_multi_sum. Qed.
Print Assumptions C25_multi_sum.

(* poolSizeUniversal stays within [0, MintPool] whenever it returns. *)
Theorem C25_pool_size_range : forall b r, 0 <= b -> pool_size b = Ok r -> 0 <= r <= mint_pool.
Proof. intros b r _. apply pool_size_range. Qed.
Print Assumptions C25_pool_size_range.

(* Whenever a mint transaction is built its outputs sum exactly to the batch
   amount (the light output absorbs the remainder); no guard needed. *)
Theorem C25_outputs_sum_exact : forall batch amount day0 rdy works thr outs,
  build_outputs batch amount day0 rdy works thr = Ok outs -> zsum outs = amount.
Proof.
  intros batch amount day0 rdy works thr outs (m & l & _ & -> & _ & H & _)%build_outputs_inv.
  rewrite zsum_app. cbn [zsum]. lia.
Qed.
Print Assumptions C25_outputs_sum_exact.

(* The construction with the two `total > amount` checks removed is the same
   function, on all inputs: where a check would fire, amount.Sub(total) panics
   as well. *)
Theorem C25_total_guards_unreachable : forall batch amount day0 rdy works thr,
  build_outputs batch amount day0 rdy works thr =
  build_outputs_noguard batch amount day0 rdy works thr.
Proof.
  intros batch amount day0 rdy works thr. unfold build_outputs, build_outputs_noguard.
  destruct (_ || _); [reflexivity|]. destruct (i_div amount 10); cbn [bind]; try reflexivity.
  destruct (i_mul _ 5); cbn [bind]; try reflexivity. destruct (_ && _); [reflexivity|].
  destruct (distribute _ _ _ _); cbn [bind]; try reflexivity. apply mint_outputs_guards.
Qed.
Print Assumptions C25_total_guards_unreachable.

(* The kernel-node outputs (the first |works| outputs) get at most half. *)
Theorem C25_kernel_half : forall batch amount day0 rdy works thr outs,
  build_outputs batch amount day0 rdy works thr = Ok outs ->
  2 * zsum (firstn (length works) outs) <= amount /\
  zsum (firstn (length works) outs) <= amount / 10 * 5.
Proof.
  intros batch amount day0 rdy works thr outs H.
  apply build_outputs_inv in H as (m & l & _ & -> & Hlen & _ & H5 & H2 & _).
  rewrite firstn_exact by assumption. split; assumption.
Qed.
Print Assumptions C25_kernel_half.

(* One output per node, then the custodian output = 4 * floor(amount / 10), then the light output. *)
Theorem C25_custodian_share : forall batch amount day0 rdy works thr outs,
  build_outputs batch amount day0 rdy works thr = Ok outs ->
  length outs = (length works + 2)%nat /\
  nth_error outs (length works) = Some (amount / 10 * 4).
Proof.
  intros batch amount day0 rdy works thr outs H.
  apply build_outputs_inv in H as (m & l & _ & -> & Hlen & _).
  rewrite app_length, <- Hlen. split; [cbn [length]; lia|].
  rewrite nth_error_app2, Nat.sub_diag by lia. reflexivity.
Qed.
Print Assumptions C25_custodian_share.

(* The piecewise map with its floors is monotone ... *)
Theorem C25_remap_monotone : forall avg w1 w2 y1 y2,
  remap avg w1 = Ok y1 -> remap avg w2 = Ok y2 -> w1 <= w2 -> y1 <= y2.
Proof.
  intros avg w1 w2 y1 y2 H1 H2 Hw. apply remap_inv in H1, H2.
  destruct H1 as [Ha ->]. destruct H2 as [_ ->]. apply remap_z_mono; assumption.
Qed.
Print Assumptions C25_remap_monotone.

(* ... hence a node with more work never receives less (work = 1.2 per
   proposal + 1 per signature, as node_work computes it). *)
Theorem C25_work_monotone : forall batch amount day0 rdy works thr outs i j wi wj a b oi oj,
  build_outputs batch amount day0 rdy works thr = Ok outs ->
  nth_error works i = Some wi -> nth_error works j = Some wj ->
  node_work wi = Ok a -> node_work wj = Ok b -> a <= b ->
  nth_error outs i = Some oi -> nth_error outs j = Some oj -> oi <= oj.
Proof.
  intros batch amount day0 rdy works thr outs i j wi wj a b oi oj H Hi Hj Ha Hb Hab Hoi Hoj.
  apply build_outputs_inv in H as (m & l & Hd & -> & Hlen & _).
  rewrite nth_error_app1 in Hoi, Hoj by (rewrite Hlen; apply nth_error_Some; congruence).
  exact (distribute_monotone day0 works thr _ m i j wi wj a b oi oj Hd Hi Hj Ha Hb Hab Hoi Hoj).
Qed.
Print Assumptions C25_work_monotone.

Theorem C25_work_value : forall ls, 0 <= fst ls -> 0 <= snd ls ->
  node_work ls = Ok (20000000 * (6 * fst ls + 5 * snd ls)).
Proof.
  intros ls Hl Hs. rewrite node_work_spec. replace (fst ls <? 0) with false by lia.
  unfold work_of. rewrite Z.max_r by assumption. reflexivity.
Qed.
Print Assumptions C25_work_value.

(* Every output is positive and nothing panics under the guard: amount >= A0,
   1..50 nodes, non-negative counts, threshold >= 3 (the consensus threshold
   is always >= 5; three, because the average leaves out the least and the greatest
   work and divides by the number of counted works less two).
   Err = no transaction (too few working nodes / not ready). *)
Theorem C25_positive : forall batch amount day0 rdy works thr,
  works_ok works -> 3 <= thr -> guard_a0 <= amount ->
  1 <= Z.of_nat (length works) <= max_nodes ->
  build_outputs batch amount day0 rdy works thr = Err \/
  exists outs, build_outputs batch amount day0 rdy works thr = Ok outs /\
               Forall (fun o => 0 < o) outs.
Proof.
  intros batch amount day0 rdy works thr Hw Hthr Ha Hn.
  (* guard_a0 is 2 * 28 * 50: this fails if Consts.MintMaxNodes comes to be another number *)
  unfold guard_a0 in Ha. change max_nodes with 50 in Hn.
  rewrite build_outputs_spec. destruct (_ || _ || _ && _); [left; reflexivity|].
  destruct (distribute_guard day0 works thr (amount / 10 * 5) Hw Hthr)
    as [->|(mints & Hd & Hpos)]; [lia|lia|left; reflexivity|right].
  rewrite Hd. cbn [bind]. apply distribute_sum in Hd as [Hsum _].
  eexists. split; [apply mint_outputs_spec; repeat split; try eassumption; lia|].
  apply Forall_app. split; [assumption|]. repeat constructor; lia.
Qed.
Print Assumptions C25_positive.

Theorem C25_threshold_at_least_5 : forall n, 5 <= consensus_threshold n.
Proof.
  intros n. unfold consensus_threshold. destruct (n <? min_nodes) eqn:E; [lia|].
  change min_nodes with 7 in E. lia.
Qed.
Print Assumptions C25_threshold_at_least_5.

(* The whole mint of any batch of the horizon, after any earlier batch: the
   amount is the sum of the due batches, at least A0, and the transaction is
   either not built or has positive outputs summing exactly to it. *)
Theorem C25_positive_in_horizon : forall old oa batch vo day0 rdy works thr,
  0 <= old -> old < batch <= horizon ->
  works_ok works -> 3 <= thr -> 1 <= Z.of_nat (length works) <= max_nodes ->
  exists s, mint_multi old batch = Ok s /\ guard_a0 <= s /\
    (build_mint old oa batch vo day0 rdy works thr = Err \/
     exists outs, build_mint old oa batch vo day0 rdy works thr = Ok outs /\
                  Forall (fun o => 0 < o) outs /\ zsum outs = s).
Proof.
  intros old oa batch vo day0 rdy works thr Ho Hb Hw Hthr Hn.
  destruct (mint_multi_before _ _ old batch size_at_horizon eq_refl Hb) as (s & Hs & Hge).
  assert (Hg : guard_a0 <= s) by (unfold guard_a0; lia).
  exists s. split; [assumption|]. split; [assumption|].
  unfold build_mint, mint_possibility.
  replace (batch <? old) with false by lia. replace (batch =? old) with false by lia.
  rewrite Hs. cbn [bind fst snd].
  destruct (C25_positive batch s day0 rdy works thr Hw Hthr Hg Hn)
    as [He|(outs & Hok & Hpos)]; [left; exact He|right].
  exists outs. split; [exact Hok|]. split; [exact Hpos|exact (C25_outputs_sum_exact _ _ _ _ _ _ _ Hok)].
Qed.
Print Assumptions C25_positive_in_horizon.

(* Beyond the horizon positivity fails by construction of the schedule and the
   construction panics in total.Add(0): not claimed, witnessed here. *)
Theorem C25_beyond_horizon_panics :
  build_outputs 60000 100 false true (repeat (10, 10) 40 ++ repeat (0, 1) 10) 34 = Panic.
Proof. vm_compute. reflexivity. Qed.
Print Assumptions C25_beyond_horizon_panics.

Example C25_ex_schedule :
  mint_batch_size 1707 = Ok 8987671232 /\ mint_batch_size 36500 = Ok 363854 /\
  mint_batch_size horizon = Ok 2858 /\ mint_batch_size 81029 = Ok 1 /\
  mint_batch_size 104025 = Panic /\ mint_multi 1706 1709 = Ok (3 * 8987671232) /\
  mint_multi 81029 81030 = Panic /\ pool_size 1707 = Ok 30585045205696.
Proof.
  split; [vm_compute; reflexivity|]. split.
  { rewrite (mint_batch_size_year 36500 100 (pools 100 mint_pool) eq_refl eq_refl);
      [vm_compute; reflexivity|exact (pool_after_pools 100 0 _ eq_refl)]. }
  split; [exact size_at_horizon|].
  split; [exact (mint_batch_size_year 81029 221 _ eq_refl eq_refl pool_221)|].
  split; [exact size_after_last|].
  split; [vm_compute; reflexivity|]. split; [|vm_compute; reflexivity].
  change (mint_multi 81029 81030)
    with (do s <- mint_batch_size first_zero_batch; do a <- i_add 0 s; Ok a).
  rewrite size_at_zero. reflexivity.
Qed.

(* a mint of batch 1707 for 9 nodes with works around the breakpoints a/7, a, 7a *)
Definition ex_works : list (Z * Z) :=
  [(0,100);(0,99);(0,101);(0,4900);(0,4899);(0,699);(0,701);(0,700);(0,700)].
Example C25_ex_works_ok : works_ok ex_works.
Proof. repeat constructor; discriminate. Qed.
Example C25_ex_build :
  build_mint 1706 8987671232 1707 false false true ex_works (consensus_threshold 9) =
  Ok [106581122; 106581122; 106581122; 1161599318; 1161489139; 462089875;
      463412020; 462750947; 462750947; 3595068492; 898767128] /\
  zsum [106581122; 106581122; 106581122; 1161599318; 1161489139; 462089875;
        463412020; 462750947; 462750947; 3595068492; 898767128] = 8987671232.
Proof. vm_compute. split; reflexivity. Qed.
