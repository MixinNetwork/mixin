(* C08 - peer message parsing is total and faithful.
   Property theorems and non-vacuity examples, about the executable model Model/P2PMsg.v of
   p2p/handle.go, which the correspondence harness (harness/cmd/c08) runs
   against the real parser and builders.  The decoders of the snapshot and
   transaction payloads and the curve point check are arbitrary parameters
   (snap_body, snap_signed, tx_body, check_key): every theorem down to
   C08_payload_roundtrip holds for all of them; the last five are about the
   instance [parse_msg_concrete] of Proofs/P2PMsgInst.v. *)
From Coq Require Import List ZArith NArith Bool.
Require Import Mixin.Base.Res Mixin.Gen.Consts Mixin.Model.P2PMsg Mixin.Proofs.P2PMsg Mixin.Proofs.P2PMsgInst.
Require Mixin.Model.TxCodec Mixin.Model.SnapCodec Mixin.Proofs.TxCodecTop Mixin.Proofs.SnapCodec.
Import ListNotations.
Open Scope Z_scope.

(* Parsing never panics: for every version byte and every byte string shorter
   than 4 GiB (the transport admits at most 32 MiB, C31) no slice or index of
   the parser is out of range.  The bound is needed: 4+size is computed in
   uint32 in parseTransactionsPayload. *)
Theorem C08_total : forall SN TX snap_body snap_signed tx_body check_key version data,
  len data < 4294967296 ->
  parse_msg SN TX snap_body snap_signed tx_body check_key version data <> Panic.
Proof. exact parse_msg_no_panic. Qed.
Print Assumptions C08_total.

(* Every point of an accepted pre-commitments, announcement, commitment or full
   challenge message passed the point check. *)
Theorem C08_points_checked : forall SN TX snap_body snap_signed tx_body check_key v data v' m,
  parse_msg SN TX snap_body snap_signed tx_body check_key v data = Ok (v', m) ->
  Forall (fun k => check_key k = true) (msg_points m).
Proof.
  intros SN TX snap_body snap_signed tx_body check_key v [|t rest] v' m H; [discriminate|].
  rewrite parse_msg_cons in H. apply Mixin.Proofs.Res.rmap_ok in H as (m' & H & [= _ ->]).
  pose proof (parse_body_checked _ _ snap_body snap_signed tx_body check_key (Z.of_N t) (t :: rest)) as C.
  now rewrite H in C.
Qed.
Print Assumptions C08_points_checked.

Theorem C08_roundtrip_authentication : forall SN TX snap_body snap_signed tx_body check_key v data,
  1 + len data = Consts.P2P_AuthenticationMessageSize ->
  parse_msg SN TX snap_body snap_signed tx_body check_key v (build_authentication data) = Ok (v, MAuthentication data).
Proof.
  intros SN TX snap_body snap_signed tx_body check_key v data H.
  unfold build_authentication. rewrite parse_msg_cons. dispatch. test_is false. now rewrite slice_from_cons.
Qed.
Print Assumptions C08_roundtrip_authentication.

Theorem C08_roundtrip_snapshot_confirm : forall SN TX snap_body snap_signed tx_body check_key v h,
  len h = hash_size ->
  parse_msg SN TX snap_body snap_signed tx_body check_key v (build_snapshot_confirm h) = Ok (v, MSnapshotConfirm h).
Proof.
  intros SN TX snap_body snap_signed tx_body check_key v h H.
  unfold build_snapshot_confirm. rewrite parse_msg_cons. dispatch.
  test_is false. rewrite slice_from_cons. cbn [bind]. now rewrite copy_arr_id.
Qed.
Print Assumptions C08_roundtrip_snapshot_confirm.

Theorem C08_roundtrip_transaction_request : forall SN TX snap_body snap_signed tx_body check_key v h,
  len h = hash_size ->
  parse_msg SN TX snap_body snap_signed tx_body check_key v (build_transaction_request h) = Ok (v, MTransactionRequest h).
Proof.
  intros SN TX snap_body snap_signed tx_body check_key v h H.
  unfold build_transaction_request. rewrite parse_msg_cons. dispatch.
  test_is false. rewrite slice_from_cons. cbn [bind]. now rewrite copy_arr_id.
Qed.
Print Assumptions C08_roundtrip_transaction_request.

Theorem C08_roundtrip_response : forall SN TX snap_body snap_signed tx_body check_key v h si,
  len h = hash_size -> len si = 32 ->
  parse_msg SN TX snap_body snap_signed tx_body check_key v (build_response h si) = Ok (v, MResponse h si).
Proof.
  intros SN TX snap_body snap_signed tx_body check_key v h si H1 H2.
  unfold build_response. rewrite parse_msg_cons. dispatch.
  rewrite slice_from_cons. cbn [bind]. test_is false.
  slice_from_is (ty Consts.P2P_TypeResponse :: h) si. now rewrite copy_arr_app, copy_arr_id.
Qed.
Print Assumptions C08_roundtrip_response.

Theorem C08_roundtrip_relay : forall SN TX snap_body snap_signed tx_body check_key v me peer m r,
  len me = hash_size -> len peer = hash_size -> build_relay me peer m = Ok r ->
  parse_msg SN TX snap_body snap_signed tx_body check_key v r = Ok (v, MRelay r).
Proof.
  intros SN TX snap_body snap_signed tx_body check_key v me peer m r H1 H2 Hb.
  unfold build_relay in Hb. destruct (max_size <? len m); [discriminate|].
  apply Mixin.Proofs.Res.Ok_inj in Hb as <-. rewrite parse_msg_cons. dispatch. pose proof (len_nonneg m).
  test_is false. reflexivity.
Qed.
Print Assumptions C08_roundtrip_relay.

Theorem C08_roundtrip_consumers : forall SN TX snap_body snap_signed tx_body check_key v entries,
  parse_msg SN TX snap_body snap_signed tx_body check_key v (build_consumers entries) =
  Ok (v, MConsumers (concat (map (fun e => fst e ++ snd e) entries))).
Proof.
  intros SN TX snap_body snap_signed tx_body check_key v entries.
  unfold build_consumers. rewrite parse_msg_cons. dispatch. now rewrite slice_from_cons.
Qed.
Print Assumptions C08_roundtrip_consumers.

(* a transaction that the transaction decoder accepts (C06: every marshalled transaction) *)
Theorem C08_roundtrip_transaction : forall SN TX snap_body snap_signed tx_body check_key v b t,
  tx_dec TX tx_body b = Some t ->
  parse_msg SN TX snap_body snap_signed tx_body check_key v (build_transaction b) = Ok (v, MTransaction t).
Proof. exact roundtrip_transaction. Qed.
Print Assumptions C08_roundtrip_transaction.

(* a snapshot that the snapshot decoder accepts (C07: every marshalled snapshot) *)
Theorem C08_roundtrip_finalization : forall SN TX snap_body snap_signed tx_body check_key v sb s,
  snap_dec SN snap_body sb = Some s ->
  parse_msg SN TX snap_body snap_signed tx_body check_key v (build_finalization sb) = Ok (v, MFinalization s).
Proof. exact roundtrip_finalization. Qed.
Print Assumptions C08_roundtrip_finalization.

Theorem C08_roundtrip_announcement : forall SN TX snap_body snap_signed tx_body check_key v sig R sb s,
  len sig = sig_size -> len R = key_size -> check_key R = true -> snap_dec SN snap_body sb = Some s ->
  parse_msg SN TX snap_body snap_signed tx_body check_key v (build_announcement sig R sb) = Ok (v, MAnnouncement sig R s).
Proof. exact roundtrip_announcement. Qed.
Print Assumptions C08_roundtrip_announcement.

(* transaction bundles of 0..255 transactions, both bundle types; the builder
   refuses (panics on) longer lists, so [build_transactions = Ok] covers exactly 0..255 *)
Theorem C08_roundtrip_transactions : forall SN TX snap_body snap_signed tx_body check_key v txs ts typ m,
  typ = ty Consts.P2P_TypeTransactionBundle \/ typ = ty Consts.P2P_TypeFinalizedTransactionBundle ->
  Forall2 (fun b t => tx_dec TX tx_body b = Some t) txs ts ->
  build_transactions txs typ = Ok m ->
  parse_msg SN TX snap_body snap_signed tx_body check_key v m = Ok (v, MBundle (Z.of_N typ) ts).
Proof. exact roundtrip_transactions. Qed.
Print Assumptions C08_roundtrip_transactions.

Theorem C08_roundtrip_transaction_challenge : forall SN TX snap_body snap_signed tx_body check_key v h cs mask txs ts m,
  len h = hash_size -> len cs = sig_size -> 0 <= mask < 2 ^ 64 ->
  Forall2 (fun b t => tx_dec TX tx_body b = Some t) txs ts ->
  build_transaction_challenge h cs mask txs = Ok m ->
  parse_msg SN TX snap_body snap_signed tx_body check_key v m = Ok (v, MTransactionChallenge h cs mask ts).
Proof. exact roundtrip_transaction_challenge. Qed.
Print Assumptions C08_roundtrip_transaction_challenge.

(* The parser refuses a full challenge of fewer than 257 bytes; the smallest one
   the builder can produce (round-0 snapshot, no transaction) has 238.  With at
   least one transaction attached, as the leader always does, the bound holds. *)
Theorem C08_roundtrip_full_challenge : forall SN TX snap_body snap_signed tx_body check_key v sb s c ch txs ts m,
  snap_dec SN snap_body sb = Some s -> snap_signed s = true -> len sb < 2 ^ 32 ->
  len c = key_size -> len ch = key_size -> check_key c = true -> check_key ch = true ->
  Forall2 (fun b t => tx_dec TX tx_body b = Some t) txs ts ->
  build_full_challenge sb c ch txs = Ok m ->
  256 <= len m - 1 ->
  parse_msg SN TX snap_body snap_signed tx_body check_key v m = Ok (v, MFullChallenge s c ch ts).
Proof. exact roundtrip_full_challenge. Qed.
Print Assumptions C08_roundtrip_full_challenge.

(* pre-commitment lists of 1..1024 valid points (an empty list is refuted below) *)
Theorem C08_roundtrip_commitments : forall SN TX snap_body snap_signed tx_body check_key v sig keys m,
  len sig = sig_size -> 1 <= len keys ->
  Forall (fun k => len k = 32 /\ check_key k = true) keys ->
  build_commitments sig keys = Ok m ->
  parse_msg SN TX snap_body snap_signed tx_body check_key v m =
  Ok (v, MPreCommitments sig keys (be_bytes 2 (len keys) ++ concat keys)).
Proof. exact roundtrip_commitments. Qed.
Print Assumptions C08_roundtrip_commitments.

Theorem C08_roundtrip_commitment : forall SN TX snap_body snap_signed tx_body check_key v sig h R wants,
  len sig = sig_size -> len h = hash_size -> len R = key_size -> check_key R = true ->
  Forall (fun w => len w = 32) wants ->
  parse_msg SN TX snap_body snap_signed tx_body check_key v (build_commitment sig h R wants) =
  Ok (v, MCommitment sig h R wants (h ++ R ++ concat wants)).
Proof. exact roundtrip_commitment. Qed.
Print Assumptions C08_roundtrip_commitment.

(* graph (sync points): node and hash of 32 bytes, round number below 2^64; up to 65535 points *)
Theorem C08_sync_points_roundtrip : forall ps d, Forall point_wf ps ->
  marshal_sync_points ps = Ok d -> unmarshal_sync_points d = Ok ps.
Proof. exact sync_points_roundtrip. Qed.
Print Assumptions C08_sync_points_roundtrip.

Theorem C08_roundtrip_graph : forall SN TX snap_body snap_signed tx_body check_key v sig ps m d,
  len sig = sig_size -> Forall point_wf ps ->
  marshal_sync_points ps = Ok d -> build_graph sig ps = Ok m ->
  parse_msg SN TX snap_body snap_signed tx_body check_key v m = Ok (v, MGraph sig ps d).
Proof. exact roundtrip_graph. Qed.
Print Assumptions C08_roundtrip_graph.

Theorem C08_payload_roundtrip : forall TX tx_body txs ts pl,
  Forall2 (fun b t => tx_dec TX tx_body b = Some t) txs ts ->
  build_txs_payload txs = Ok pl -> parse_txs_payload TX tx_body pl = Ok ts.
Proof. exact parse_txs_payload_build. Qed.
Print Assumptions C08_payload_roundtrip.

(* Non-vacuity and the two refuted corners, on an instance where every snapshot
   with the right header and every transaction decodes to itself. *)
Definition ex_parse := parse_msg bytes bytes (fun b => Some b) (fun _ => true) (fun b => Some b) (fun k => negb (bytes_eqb k (repeat 0%N 32))).
Definition ex_key : bytes := repeat 7%N 32.
Definition ex_sig : bytes := repeat 9%N 64.
Definition ex_snap : bytes := Consts.P2P_SnapshotEncodingHeader ++ repeat 1%N 164.

Example C08_ex_bundle :
  exists m, build_transactions [[1;2;3]%N; []; [4]%N] (ty Consts.P2P_TypeTransactionBundle) = Ok m /\
    ex_parse 2%N m = Ok (2%N, MBundle Consts.P2P_TypeTransactionBundle [[1;2;3]%N; []; [4]%N]).
Proof. eexists; split; [vm_compute; reflexivity|]. vm_compute. reflexivity. Qed.

Example C08_ex_announcement :
  ex_parse 2%N (build_announcement ex_sig ex_key ex_snap) = Ok (2%N, MAnnouncement ex_sig ex_key ex_snap)
  /\ ex_parse 2%N (build_announcement ex_sig (repeat 0%N 32) ex_snap) = Err.
Proof. split; vm_compute; reflexivity. Qed.

(* refuted: an empty pre-commitments list (67 bytes) is below the 80-byte minimum *)
Example C08_roundtrip_commitments_empty_refuted :
  exists m, build_commitments ex_sig [] = Ok m /\ ex_parse 2%N m = Err.
Proof. eexists; split; [vm_compute; reflexivity|]. vm_compute. reflexivity. Qed.

Example C08_ex_commitments :
  exists m, build_commitments ex_sig [ex_key; ex_key] = Ok m /\
    exists u, ex_parse 2%N m = Ok (2%N, MPreCommitments ex_sig [ex_key; ex_key] u).
Proof. eexists; split; [vm_compute; reflexivity|]. eexists. vm_compute. reflexivity. Qed.

(* refuted: a full challenge without transactions around a 168-byte snapshot is refused *)
Example C08_roundtrip_full_challenge_small_refuted :
  exists m, build_full_challenge ex_snap ex_key ex_key [] = Ok m /\ len m = 238 /\ ex_parse 2%N m = Err.
Proof. eexists; split; [vm_compute; reflexivity|]. split; vm_compute; reflexivity. Qed.

Example C08_ex_full_challenge :
  exists m, build_full_challenge ex_snap ex_key ex_key [repeat 5%N 40] = Ok m /\
    ex_parse 2%N m = Ok (2%N, MFullChallenge ex_snap ex_key ex_key [repeat 5%N 40]).
Proof. eexists; split; [vm_compute; reflexivity|]. vm_compute. reflexivity. Qed.

Example C08_ex_graph :
  exists m, build_graph ex_sig [mk_point ex_key 77 ex_key] = Ok m /\
    exists u, ex_parse 2%N m = Ok (2%N, MGraph ex_sig [mk_point ex_key 77 ex_key] u).
Proof. eexists; split; [vm_compute; reflexivity|]. eexists. vm_compute. reflexivity. Qed.

Example C08_ex_short_inputs :
  ex_parse 2%N [] = Err /\ ex_parse 2%N [15]%N = Err /\ ex_parse 2%N [24;0;0;0;200]%N = Err
  /\ ex_parse 2%N [1]%N = Ok (2%N, MPing) /\ ex_parse 2%N [77]%N = Ok (2%N, MOther 77).
Proof. repeat split; vm_compute; reflexivity. Qed.

(* The checks P2PMsg.v writes in front of the opaque decoders are the ones the
   concrete decoders begin with: the composition is the real call. *)
Theorem C08_inner_decoders_composed : forall b,
  snap_dec Mixin.Model.SnapCodec.snapshot snap_body_c b = snap_body_c b /\
  tx_dec Mixin.Model.TxCodec.tx tx_body_c b = tx_body_c b.
Proof. intros b. split; [apply snap_dec_concrete|apply tx_dec_concrete]. Qed.
Print Assumptions C08_inner_decoders_composed.

(* No hypothesis on the payload decoders: for every version and every string of
   bytes shorter than 4 GiB the parser does not panic, and no call of either
   payload decoder on any slice of the message panics (so reading their outcome as
   accepted / refused hides nothing). *)
Theorem C08_total_concrete : forall check_key v b, len b < 4294967296 -> is_bytes b ->
  parse_msg_concrete check_key v b <> Panic /\
  (forall lo hi r, slice b lo hi = Ok r ->
     Mixin.Model.TxCodec.unmarshal r <> Panic /\ Mixin.Model.SnapCodec.unmarshal_snapshot r <> Panic).
Proof. exact total_concrete. Qed.
Print Assumptions C08_total_concrete.

(* every well-formed transaction (C06_roundtrip's wf_tx), alone or in a bundle, comes back field for field *)
Theorem C08_roundtrip_transaction_concrete : forall check_key v t, Mixin.Proofs.TxCodecTop.wf_tx t ->
  parse_msg_concrete check_key v (build_transaction (Mixin.Model.TxCodec.ser_tx t)) = Ok (v, MTransaction t).
Proof. exact roundtrip_transaction_concrete. Qed.
Print Assumptions C08_roundtrip_transaction_concrete.

Theorem C08_roundtrip_transactions_concrete : forall check_key v ts typ m,
  typ = ty Consts.P2P_TypeTransactionBundle \/ typ = ty Consts.P2P_TypeFinalizedTransactionBundle ->
  Forall Mixin.Proofs.TxCodecTop.wf_tx ts ->
  build_transactions (map Mixin.Model.TxCodec.ser_tx ts) typ = Ok m ->
  parse_msg_concrete check_key v m = Ok (v, MBundle (Z.of_N typ) ts).
Proof. exact roundtrip_transactions_concrete. Qed.
Print Assumptions C08_roundtrip_transactions_concrete.

(* every well-formed snapshot (C07_roundtrip's wf) in a finalization message comes back, transactions sorted *)
Theorem C08_roundtrip_finalization_concrete : forall check_key v s topo,
  Mixin.Proofs.SnapCodec.wf s -> (topo < Mixin.Proofs.SnapCodec.u64_bound)%N ->
  exists e, Mixin.Model.SnapCodec.versioned_marshal s topo = Ok e /\
    parse_msg_concrete check_key v (build_finalization e) = Ok (v, MFinalization (Mixin.Proofs.SnapCodec.canon s)).
Proof. exact roundtrip_finalization_concrete. Qed.
Print Assumptions C08_roundtrip_finalization_concrete.

Definition ex_tx : Mixin.Model.TxCodec.tx :=
  {| Mixin.Model.TxCodec.t_version := 5; Mixin.Model.TxCodec.t_asset := 7; Mixin.Model.TxCodec.t_inputs := [];
     Mixin.Model.TxCodec.t_outputs := []; Mixin.Model.TxCodec.t_refs := [9%N; 11%N]; Mixin.Model.TxCodec.t_extra := [1; 2; 3]%N;
     Mixin.Model.TxCodec.t_auth := Mixin.Model.TxCodec.SigMaps [] |}.

Example C08_ex_concrete :
  parse_msg_concrete (fun _ => true) 2%N (build_transaction (Mixin.Model.TxCodec.ser_tx ex_tx)) = Ok (2%N, MTransaction ex_tx)
  /\ parse_msg_concrete (fun _ => true) 2%N (build_finalization [119; 119; 0; 2; 1; 2; 3]%N) = Err.
Proof. split; vm_compute; reflexivity. Qed.
