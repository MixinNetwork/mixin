(* C04 - a one-time output key is bound to at most one transaction.
   Property theorems, then non-vacuity examples, over Model/GhostKeys.v and the state machine of
   Model/Locks.v (finalization re-locks output keys); harness/cmd/c04 runs the
   same calls on a real Badger store.  Partial in the same sense as C03: the
   atomicity of a call is runtime behaviour. *)
From Coq Require Import List ZArith NArith Bool.
Require Import Mixin.Base.Res Mixin.Gen.Consts Mixin.Model.GhostKeys Mixin.Model.Locks
               Mixin.Proofs.GhostKeys Mixin.Proofs.Locks.
Import ListNotations.
Open Scope N_scope.

(* In every history the map key -> transaction only grows: a binding that
   exists after os1 is the same after any continuation os2 (admissions,
   finalizations, fork calls, calls of the exception transactions included). *)
Theorem C04_binding_monotone : forall os1 os2 k t,
  bound (s_ghost (run init os1)) k t -> bound (s_ghost (run init (os1 ++ os2))) k t.
Proof.
  intros os1 os2 k t H. rewrite run_app. exact (run_ghost_stable _ (bound_bind_stable k t) os2 _ H).
Qed.
Print Assumptions C04_binding_monotone.

(* The same for one call from ANY state, successful or not. *)
Theorem C04_step_keeps_bindings : forall s o k t,
  bound (s_ghost s) k t -> bound (s_ghost (fst (step s o))) k t.
Proof. intros s o k t. exact (step_ghost_stable _ (bound_bind_stable k t) s o). Qed.
Print Assumptions C04_step_keeps_bindings.

(* A key has at most one binding record in every reachable state. *)
Theorem C04_key_bound_to_one_transaction : forall os k t1 t2,
  In (k, t1) (s_ghost (run init os)) -> In (k, t2) (s_ghost (run init os)) -> t1 = t2.
Proof.
  intros os k t1 t2. apply nodup_functional. exact (wf_ghost _ (wf_run os init wf_init)).
Qed.
Print Assumptions C04_key_bound_to_one_transaction.

(* A key bound to another transaction is refused and nothing changes - unless
   the caller is one of the hard-coded exceptions AND fork is set. *)
Theorem C04_foreign_key_rejected : forall s ks tx f k t,
  In k ks -> bound (s_ghost s) k t -> t <> tx -> f && is_exception tx = false ->
  step s (LockGhost ks tx f) = (s, Err).
Proof.
  intros s ks tx f k t Hin Hb Hne Hex. apply step_err. cbn [exec]. unfold lock_ghost_keys.
  rewrite (lock_ghost_keys_from_foreign ks [] (s_ghost s) tx f k t Hin Hb Hne Hex). reflexivity.
Qed.
Print Assumptions C04_foreign_key_rejected.

(* The exceptions under fork: the call succeeds, the bindings are untouched. *)
Theorem C04_exception_succeeds_without_rebinding : forall s ks tx,
  is_exception tx = true -> NoDup ks ->
  (forall k, In k ks -> exists t, bound (s_ghost s) k t /\ t <> 0) ->
  step s (LockGhost ks tx true) = (s, Ok tt).
Proof.
  intros s ks tx Hex Hnd Hb. apply step_ok. cbn [exec]. unfold lock_ghost_keys.
  rewrite (lock_ghost_keys_from_exception ks [] ks _ tx Hex (vo_keys_from_nodup ks [] Hnd) Hb).
  destruct s; reflexivity.
Qed.
Print Assumptions C04_exception_succeeds_without_rebinding.

(* A transaction that repeats a key among its outputs (inside one output or
   across outputs) is rejected by the filter of validateOutputs before the
   locker is reached, and LockGhostKeys refuses the same list on its own. *)
Theorem C04_in_tx_duplicate_rejected : forall outs, ~ NoDup (concat outs) ->
  vo_keys outs = Err /\
  (forall g tx f, validate_outputs g outs tx f = Err) /\
  (forall s tx f, step s (LockGhost (concat outs) tx f) = (s, Err)).
Proof.
  intros outs Hd.
  assert (Hv : vo_keys outs = Err) by (apply vo_keys_from_dup; [constructor|exact Hd]).
  split; [exact Hv|split].
  - intros g tx f. unfold validate_outputs. rewrite Hv. reflexivity.
  - intros s tx f. apply step_err. cbn [exec]. unfold lock_ghost_keys.
    rewrite lock_ghost_keys_from_filter; [reflexivity|exact Hv].
Qed.
Print Assumptions C04_in_tx_duplicate_rejected.

(* Finalizing a transaction one of whose output keys is bound to another
   transaction does not succeed and writes nothing. *)
Theorem C04_finalize_foreign_key_fails : forall s t b ks k x,
  body_of s t = Some b -> is_final s t = false -> In ks (t_outs b) -> In k ks ->
  bound (s_ghost s) k x -> x <> t -> is_exception t = false ->
  fst (step s (Finalize t)) = s /\ snd (step s (Finalize t)) <> Ok tt.
Proof.
  intros s t b ks k x Hbody Hnf Hin Hk Hb Hne Hex. apply step_not_ok. cbn [exec].
  unfold finalize, finalize_one. rewrite Hbody, Hnf.
  destruct (debug_asserts && negb (has_body s t)); [discriminate|].
  exact (write_utxos_foreign _ (with_final s (t :: s_final s)) t 0 k x ks Hin Hk Hb Hne Hex).
Qed.
Print Assumptions C04_finalize_foreign_key_fails.

(* The exceptions are exactly the three documented hashes (values from the
   current tree via Gen/Consts.v). *)
Theorem C04_exceptions_are_the_documented_three :
  ghost_exceptions =
  [0xc63b6373652def5999c1d951fcb8f064db67b7d18565847b921b21639e15dddd;
   0x60deaf2471bb0b6481efe9080d8852b020ab2941e7faae21989d2404f34284ee;
   0xa558b1efbe27eb6a6f902fd97d4b7e2e3099e6edde1fe6e8e41204e0685fe426].
Proof. vm_compute. reflexivity. Qed.
Print Assumptions C04_exceptions_are_the_documented_three.

Definition ex_g : txd := {| t_hash := 11; t_ins := InGenesis; t_outs := [[1]; [2]] |}.
Definition ex_h : txd := {| t_hash := 12; t_ins := InGenesis; t_outs := [[5]; [2]] |}.

Example C04_ex_foreign :
  let s := run init [LockGhost [1; 2] 11 false] in
  bound (s_ghost s) 2 11 /\
  step s (LockGhost [2] 12 false) = (s, Err) /\ step s (LockGhost [2] 12 true) = (s, Err) /\
  step s (LockGhost [2] 11 false) = (s, Ok tt) /\
  step s (LockGhost [2; 1] Consts.GhostException1 true) = (s, Ok tt) /\
  step s (LockGhost [2] Consts.GhostException1 false) = (s, Err).
Proof. vm_compute. repeat split. Qed.

Example C04_ex_finalize :
  let s := run init [WriteTx ex_g; WriteTx ex_h; Finalize 11] in
  bound (s_ghost s) 2 11 /\ step s (Finalize 12) = (s, Err) /\
  bound (s_ghost (run s [Finalize 12; LockGhost [5] 12 false])) 2 11 /\
  ghost_lock (s_ghost (run s [Finalize 12])) 5 = None.
Proof. vm_compute. repeat split. Qed.

Example C04_ex_filter :
  vo_keys [[1; 2]; [3; 1]] = Err /\ vo_keys [[1; 1]] = Err /\ vo_keys [[1; 2]; [3]] = Ok [1; 2; 3] /\
  ~ NoDup (concat [[1; 2]; [3; 1]]).
Proof.
  repeat split; try (vm_compute; reflexivity).
  intro H. cbn in H. inversion H as [|x l Hn _]; subst. apply Hn. cbn. auto.
Qed.
