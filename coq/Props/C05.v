(* C05 - validating any decodable transaction never crashes the node.
   Property theorems only, proved from the lemmas of Proofs/Validate.v about the
   executable model Model/Validate.v, in which every
   panic site of VersionedTransaction.Validate's call graph inside package common
   is the explicit outcome [Panic] (Integer.Add/Sub/Mul/Div/Count,
   NewIntegerFromString, index and slice expressions, nil results of store reads
   that are dereferenced, NodeTransactionExtraAsSigner, the encoder's panics and
   the Debug re-decode inside PayloadMarshal, panic(prev.Custodian) in the
   custodian validator, ViewGhostOutputKey on an attacker-chosen scalar).
   The correspondence harness (harness/cmd/c05) runs the model against the real
   Validate, including on views that violate the invariants below, where both
   panic at the same sites. *)
From Coq Require Import List ZArith NArith Bool Lia.
Require Import Mixin.Base.Res Mixin.Gen.Consts Mixin.Model.Fixed Mixin.Model.Validate Mixin.Proofs.Validate.
Require Mixin.Model.TxCodec.
Require Import Mixin.Model.CodecValidateLink Mixin.Proofs.CodecValidateLink.
Import ListNotations.
Open Scope Z_scope.

(* [decodable t]: what DecodeTransaction + the canonical re-encoding test guarantee
   about the value they return (Proofs/Validate.v).
   [ledger_inv v ts]: the invariants of a reachable store, each established by the
   storage code:
   - inv_utxo_tx, inv_utxo_pos: output records are written only by
     storage.finalizeTransaction -> writeUTXO from ver.UnspentOutputs() of a
     transaction already stored by WriteTransaction (kernel finalizes only validated
     transactions, whose outputs are > 0; genesis outputs are > 0);
   - inv_stored: ReadTransaction returns UnmarshalVersionedTransaction of the stored
     bytes; validated and genesis transactions have >= 1 output;
   - inv_node_state, inv_node_pledge: node entries are written only by
     writeNodePledge / writeNodeAccept / writeNodeCancel / writeNodeRemove
     (storage/badger_node.go) with one of the four state strings; a PLEDGING entry is
     written by writeUTXO for a NodePledge typed output of the transaction whose hash
     it records, and validated transactions carry such an output only when they are
     node-pledge typed;
   - inv_custodian: the genesis loader writes the first custodian record at the
     epoch and every call site passes a snapshot / current time after it (F2b: before
     that time ReadCustodian returns nil and validateDeposit / validateWithdrawalClaim
     dereference it); ParseCustodianUpdateNodesExtra refuses duplicate custodian keys
     when the record is read;
   - inv_balance: writeTotalInAsset only stores non-negative totals. *)
Theorem C05_no_panic : forall v f h ts fork t,
  decodable t = true -> ledger_inv v ts -> validate v f h ts fork t <> Panic.
Proof. exact no_panic. Qed.
Print Assumptions C05_no_panic.

(* the three stages, each panic-free on its own hypotheses *)
Theorem C05_precheck_no_panic : forall t ty, decodable t = true -> precheck t ty <> Panic.
Proof. exact precheck_no_panic. Qed.
Print Assumptions C05_precheck_no_panic.

Theorem C05_inputs_no_panic : forall v f h t ty fork,
  (forall hh i u, v_utxo v hh i = Some u -> 0 < u_amount u) ->
  validate_inputs v f h t ty fork <> Panic.
Proof. exact validate_inputs_no_panic. Qed.
Print Assumptions C05_inputs_no_panic.

Theorem C05_outputs_no_panic : forall v f h t a fork, validate_outputs v f h t a fork <> Panic.
Proof. exact validate_outputs_no_panic. Qed.
Print Assumptions C05_outputs_no_panic.

(* validateNodeCancel (which calls KeyMultPubPriv on an attacker-chosen scalar) is entered only
   with a script-typed input record, and over a consistent ledger it then stops at the type test
   of the pledge output: a node-cancel typed transaction is never accepted and never panics. *)
Theorem C05_node_cancel_never_accepted : forall v f h ts fork t,
  ledger_inv v ts -> tx_type t = ty_cancel -> validate v f h ts fork t <> Ok tt.
Proof.
  intros v f h ts fork t L Hty H.
  destruct (validate_ok_inv _ _ _ _ _ _ H) as (flt & a & _ & _ & Hi & _ & _ & Hd).
  rewrite Hty in Hi, Hd. change (validate_node_cancel v f t ts = Ok tt) in Hd.
  rewrite (validate_node_cancel_err _ _ _ _ _ _ _ _ L Hty Hi) in Hd. discriminate Hd.
Qed.
Print Assumptions C05_node_cancel_never_accepted.

(* The design note "a NodeCancel transaction can never pass validateInputs" is false of the
   code: one signed ordinary script input passes validateInputs; it is the later validator
   that refuses (theorem above). *)
Theorem C05_cancel_passes_validate_inputs_refuted :
  exists v f h t fork r, tx_type t = ty_cancel /\ validate_inputs v f h t (tx_type t) fork = Ok r.
Proof.
  exists (wit_view 100), wit_facts, 5%N,
    (wit_tx [{| o_type := ot_cancel; o_amount := 1; o_keys := []; o_mask := 0%N; o_script := [];
                o_withdrawal := None |}; wit_out]), false.
  eexists. split; vm_compute; reflexivity.
Qed.
Print Assumptions C05_cancel_passes_validate_inputs_refuted.

(* Without the ledger invariants the statement is false of the model (and of the code: the
   harness shows the same panics on the real Validate): a zero-amount output record makes
   Integer.Add panic in validateInputs. *)
Theorem C05_needs_positive_records_refuted :
  exists v f h ts fork t, decodable t = true /\ validate v f h ts fork t = Panic.
Proof.
  exists (wit_view 0), wit_facts, 5%N, 1, false, (wit_tx [wit_out]).
  split; vm_compute; reflexivity.
Qed.
Print Assumptions C05_needs_positive_records_refuted.

(* a consistent view and decodable transactions that reach every stage *)

Definition ex_script : bytes := [255; 254; 1]%N.
Definition ex_out (a : Z) (k : N) : output :=
  {| o_type := ot_script; o_amount := a; o_keys := [k]; o_mask := 9%N; o_script := ex_script; o_withdrawal := None |}.
Definition ex_in (h : N) (i : Z) : input :=
  {| i_hash := h; i_index := i; i_genesis := None; i_deposit := None; i_mint := None |}.
Definition ex_src : tx :=
  {| t_version := 5; t_asset := xin; t_inputs := [ex_in 8 0]; t_outputs := [ex_out 100 21];
     t_refs := []; t_extra := []; t_agg := None; t_sigs := None |}.
Definition ex_view : view :=
  {| v_utxo := fun h i => if (h =? 1)%N && (i =? 0)
                          then Some {| u_type := ot_script; u_asset := xin; u_amount := 100; u_nkeys := 1;
                                       u_script := ex_script; u_lock := 0%N |}
                          else None;
     v_tx := fun h => if (h =? 1)%N then Some {| s_tx := ex_src; s_hash := 1%N; s_final := true |} else None;
     v_deposit_lock := fun _ => 0%N; v_last_mint := None;
     v_nodes := fun _ => [{| n_signer := 31%N; n_payee := 32%N; n_state := st_accepted; n_tx := 77%N |}];
     v_custodian := fun _ => Some {| c_addr := (5%N, 6%N); c_nodes := [((1%N, 2%N), (3%N, 4%N))] |};
     v_asset := fun a => if (a =? xin)%N then Some (3%N, [48]%N, 500) else None;
     v_ghost_ok := fun _ _ _ => true |}.
Definition ex_facts : facts :=
  {| f_check_key := fun _ => true; f_agg_ok := true; f_deposit_sig := true; f_claim_sig := true;
     f_accept_sig := true; f_cancel_ghost := Ok true; f_cancel_sig := true; f_cust_prev_sig := true;
     f_cust_node_sigs := [] |}.

Example C05_ex_view_consistent : ledger_inv ex_view 1.
Proof.
  constructor.
  - (* inv_utxo_tx *)
    intros h i u H. cbn in H. destruct ((h =? 1)%N && (i =? 0)) eqn:E; [|discriminate H].
    apply andb_prop in E. destruct E as [E1 E2]. apply N.eqb_eq in E1. apply Z.eqb_eq in E2. subst.
    inversion H; subst. eexists. exists (ex_out 100 21). repeat split.
  - (* inv_utxo_pos *)
    intros h i u H. cbn in H. destruct ((h =? 1)%N && (i =? 0)); [|discriminate H]. inversion H. cbn. lia.
  - (* inv_stored *)
    intros h s H. cbn in H. destruct (h =? 1)%N; [|discriminate H]. inversion H. split; [vm_compute; reflexivity|discriminate].
  - (* inv_node_state *) intros n [<-|[]]. right. left. reflexivity.
  - (* inv_node_pledge *) intros n [<-|[]] H. vm_compute in H. discriminate H.
  - (* inv_custodian *) eexists. split; [reflexivity|]. cbn. constructor; [intros []|constructor].
  - (* inv_balance *) intros a chain key bal H. cbn in H. destruct (a =? xin)%N; [|discriminate H]. inversion H. lia.
Qed.

Definition ex_transfer : tx :=
  {| t_version := 5; t_asset := xin; t_inputs := [ex_in 1 0]; t_outputs := [ex_out 60 11; ex_out 40 12];
     t_refs := []; t_extra := []; t_agg := None; t_sigs := Some [[(0, true)]] |}.
Example C05_ex_accepts : decodable ex_transfer = true /\ validate ex_view ex_facts 77%N 1 false ex_transfer = Ok tt.
Proof. split; vm_compute; reflexivity. Qed.

(* the shapes of findings F1 and F2 (DESIGN.md section 7) are decodable and refused without a panic *)
Definition ex_f1 : tx :=
  {| t_version := 5; t_asset := xin; t_inputs := [ex_in 1 0];
     t_outputs := [{| o_type := ot_remove; o_amount := 100; o_keys := [11%N]; o_mask := 9%N; o_script := ex_script; o_withdrawal := None |}];
     t_refs := []; t_extra := []; t_agg := None; t_sigs := None |}.
Definition ex_f2 : tx :=
  {| t_version := 5; t_asset := xin; t_inputs := [ex_in 1 0];
     t_outputs := [{| o_type := ot_script; o_amount := 2 ^ 100; o_keys := [11%N]; o_mask := 9%N;
                      o_script := Consts.ValStorageScript; o_withdrawal := None |}];
     t_refs := []; t_extra := []; t_agg := None; t_sigs := Some [[(0, true)]] |}.
Example C05_ex_f1_f2 :
  decodable ex_f1 = true /\ validate ex_view ex_facts 77%N 1 false ex_f1 = Err /\
  decodable ex_f2 = true /\ validate ex_view ex_facts 77%N 1 false ex_f2 = Err /\
  get_extra_limit ex_f2 = Ok Consts.ValExtraSizeStorageCapacity.
Proof. repeat split; vm_compute; reflexivity. Qed.

(* C05 over byte strings.
   The byte-level decoder is modelled and proved canonical in Model/TxCodec.v (property C06).
   [proj] (Model/CodecValidateLink.v) maps a decoded transaction to the record validated here;
   [trim] stands for the strings.TrimSpace tests and [sigv] for the signature verification
   results, both arbitrary.  Every field of [decodable] follows from [unmarshal b = Ok t], so
   the panic-freedom theorem quantifies over exactly "every byte string that decodes". *)
Theorem C05_decoder_yields_decodable : forall trim sigv b t,
  TxCodec.unmarshal b = Ok t -> decodable (proj trim sigv t) = true.
Proof. exact unmarshal_decodable. Qed.
Print Assumptions C05_decoder_yields_decodable.

Theorem C05_no_panic_bytes : forall trim sigv b t v f h ts fork,
  TxCodec.unmarshal b = Ok t -> ledger_inv v ts ->
  validate v f h ts fork (proj trim sigv t) <> Panic.
Proof. exact no_panic_bytes. Qed.
Print Assumptions C05_no_panic_bytes.

(* non-vacuity: the 375 bytes the real encoder produced for a signed mint transaction (harness
   corpus case "mint") decode in the codec model, project to a mint-typed decodable transaction,
   and validate over the consistent example view *)
Definition ex_bytes : list N := [119;119;0;5;169;156;46;14;43;29;164;214;72;117;94;241;155;217;81;57;172;187;230;86;76;251;6;222;199;205;52;147;28;167;44;220;0;1;0;0;0;0;0;0;0;0;0;0;0;0;0;0;0;0;0;0;0;0;0;0;0;0;0;0;0;0;0;0;0;0;0;0;0;0;0;0;119;119;0;9;85;78;73;86;69;82;83;65;76;0;0;0;0;0;0;5;243;0;4;226;127;102;0;0;2;0;0;0;4;126;137;208;173;0;1;32;20;1;10;158;165;229;72;220;217;27;207;222;121;60;161;65;28;69;233;63;192;235;175;19;55;92;14;136;3;167;60;86;39;188;18;255;103;49;115;23;176;37;150;24;190;232;100;213;149;98;30;165;5;155;96;10;217;33;235;211;75;201;146;0;3;255;254;1;0;0;0;0;0;4;99;245;149;83;0;2;136;227;217;106;56;22;25;103;55;36;139;35;31;151;168;160;207;5;166;100;178;200;174;242;174;25;86;75;58;243;45;82;144;30;22;73;90;199;166;14;180;2;209;247;119;159;17;50;236;181;10;164;135;100;117;82;8;157;175;14;61;130;53;255;10;189;35;131;71;237;60;13;173;168;171;154;15;51;171;118;124;194;69;181;172;22;11;32;98;91;107;136;198;104;176;151;0;3;255;254;2;0;0;0;0;0;0;0;0;0;1;0;1;0;0;135;85;214;186;51;230;99;164;132;16;123;170;1;194;157;195;80;226;155;123;33;41;49;88;43;70;193;5;228;80;146;237;214;86;186;109;102;67;204;35;133;92;182;178;185;168;58;112;205;162;160;133;240;204;130;76;23;73;170;138;85;111;212;6]%N.
Example C05_ex_bytes :
  exists t, TxCodec.unmarshal ex_bytes = Ok t /\
            tx_type (proj (fun _ => true) (fun _ _ _ => true) t) = ty_mint /\
            decodable (proj (fun _ => true) (fun _ _ _ => true) t) = true /\
            validate ex_view ex_facts 77%N 1 false (proj (fun _ => true) (fun _ _ _ => true) t) = Ok tt.
Proof. eexists. split; [vm_compute; reflexivity|]. repeat split; vm_compute; reflexivity. Qed.
