(* C06 - transaction encoding is canonical and its hash is content-addressed.
   Property theorems only, proved from the lemmas of Proofs/TxCodec.v and
   Proofs/TxCodecTop.v about the executable model Model/TxCodec.v, which the
   correspondence harness (harness/cmd/c06) runs against common.UnmarshalVersionedTransaction,
   Encoder.EncodeTransaction, VersionedTransaction.Marshal / PayloadMarshal / PayloadHash. *)
From Coq Require Import List ZArith NArith Bool.
Require Import Mixin.Base.Res Mixin.Model.TxCodec Mixin.Proofs.TxCodec Mixin.Proofs.TxCodecTop.
Import ListNotations.
Open Scope N_scope.

(* Any byte string the decoder accepts re-encodes to exactly the same bytes
   (in particular the re-encoding does not panic). *)
Theorem C06_canonical : forall b t, unmarshal b = Ok t -> enc_tx t = Ok b.
Proof. intros b t H. apply unmarshal_inv in H. tauto. Qed.
Print Assumptions C06_canonical.

(* Re-encoding the decoder's output never panics: on every byte string the
   decoder either accepts or rejects. *)
Theorem C06_reencode_total : forall b, bytes_ok b -> unmarshal b <> Panic.
Proof. exact unmarshal_no_panic. Qed.
Print Assumptions C06_reencode_total.

(* Encoding followed by decoding returns an equal transaction.  [wf_tx]: Go type
   ranges, the encoder's own non-panic guards (counts, index <= 1024, extra <= 4 MiB,
   sizes <= 0xFFFF, signers strictly increasing), signature maps given by their
   index-sorted association list, and the decoder's limits (at most SliceCountLimit
   references, keys per output and signature maps; total size <= 4 MiB). *)
Theorem C06_roundtrip : forall t, wf_tx t ->
  enc_tx t = Ok (ser_tx t) /\ unmarshal (ser_tx t) = Ok t.
Proof. exact unmarshal_roundtrip. Qed.
Print Assumptions C06_roundtrip.

(* The encoder's own guards alone do not give the round trip: 257 references
   encode without panic and are refused by the decoder (corpus case
   corpus-count-limit of the harness); hence the decoder's limits in [wf_tx]. *)
Theorem C06_roundtrip_encoder_guards_only_refuted :
  exists t, wf_tx_lim max_int t /\ enc_tx t = Ok (ser_tx t) /\ unmarshal (ser_tx t) = Err.
Proof.
  exists {| t_version := 5; t_asset := 7; t_inputs := []; t_outputs := []; t_refs := repeat 1 257;
            t_extra := []; t_auth := SigMaps [] |}.
  split; [|split; vm_compute; reflexivity].
  unfold wf_tx_lim. cbn [t_version t_asset t_inputs t_outputs t_refs t_extra t_auth].
  split; [reflexivity|]. split; [vm_compute; reflexivity|]. split; [constructor|]. split; [constructor|].
  split; [apply Forall_forall; intros x Hx; apply repeat_spec in Hx; subst x; vm_compute; reflexivity|].
  split; [vm_compute; discriminate|].
  split; [split; [constructor | vm_compute; discriminate]|]. vm_compute. reflexivity.
Qed.
Print Assumptions C06_roundtrip_encoder_guards_only_refuted.

(* Two transactions with different payloads never get the same payload encoding;
   only the payload fields are constrained, by type ranges and the encoder's guards. *)
Theorem C06_payload_injective : forall t1 t2, wf_payload t1 -> wf_payload t2 ->
  enc_payload t1 = enc_payload t2 -> payload t1 = payload t2.
Proof. exact enc_payload_injective. Qed.
Print Assumptions C06_payload_injective.

(* The hash is H(payload encoding) for an arbitrary H: it does not depend on the
   authorization data ... *)
Theorem C06_hash_ignores_auth : forall (Hsh : Type) (H : bytes -> Hsh) t1 t2,
  payload t1 = payload t2 -> payload_hash H t1 = payload_hash H t2.
Proof.
  intros Hsh H t1 t2 E. unfold payload_hash, payload_marshal, enc_payload. rewrite E. reflexivity.
Qed.
Print Assumptions C06_hash_ignores_auth.

(* ... it exists for every structurally valid transaction ... *)
Theorem C06_hash_defined : forall (Hsh : Type) (H : bytes -> Hsh) t, wf_tx t ->
  payload_hash H t = Ok (H (ser_tx (payload t))).
Proof. exact @payload_hash_wf. Qed.
Print Assumptions C06_hash_defined.

(* ... and, H being injective on the two payload encodings, equal hashes mean equal
   payloads: the hash depends on every payload field. *)
Theorem C06_hash_determines_payload : forall (Hsh : Type) (H : bytes -> Hsh) t1 t2 h,
  wf_payload t1 -> wf_payload t2 ->
  (forall b1 b2, enc_payload t1 = Ok b1 -> enc_payload t2 = Ok b2 -> H b1 = H b2 -> b1 = b2) ->
  payload_hash H t1 = Ok h -> payload_hash H t2 = Ok h -> payload t1 = payload t2.
Proof.
  intros Hsh H t1 t2 h W1 W2 Inj E1 E2.
  destruct (payload_hash_ok _ _ _ E1) as (b1 & P1 & H1). destruct (payload_hash_ok _ _ _ E2) as (b2 & P2 & H2).
  apply enc_payload_injective; try assumption. rewrite P1, P2. f_equal. apply (Inj b1 b2 P1 P2). congruence.
Qed.
Print Assumptions C06_hash_determines_payload.

(* Component round trips (the byte-level decoder inverts the encoder field by field). *)
Theorem C06_par_input : forall i r, wf_input i -> r <> [] ->
  par_input (ser_input i ++ r) = Some (i, r).
Proof. exact par_input_ser. Qed.
Print Assumptions C06_par_input.

Theorem C06_par_output : forall lim o r, wf_output lim o ->
  par_output lim (ser_output o ++ r) = Some (o, r).
Proof. intros lim o r W. apply par_output_ser; [exact W | exact I]. Qed.
Print Assumptions C06_par_output.

Theorem C06_par_signatures : forall m r, wf_sigs m -> par_sigs (ser_sigs m ++ r) = Some (m, r).
Proof. intros m r W. apply par_sigs_ser; [exact W | exact I]. Qed.
Print Assumptions C06_par_signatures.

(* both mask forms of the aggregated signature, whichever the encoder chooses *)
Theorem C06_par_aggregated : forall sg s r, sig_ok sg -> validate_signers s = true ->
  par_auth (ser_auth (Aggregate sg s) ++ r) = Some (Aggregate sg s, r).
Proof.
  intros sg s r H1 H2. exact (par_agg_ser sg s r (conj H1 H2)).
Qed.
Print Assumptions C06_par_aggregated.

(* A Go map has no order: any listing of the same entries encodes identically. *)
Theorem C06_signature_map_order : forall m1 m2, Permutation.Permutation m1 m2 ->
  keys_distinct m1 = true -> ser_sigs m1 = ser_sigs m2.
Proof.
  intros m1 m2 P D. unfold ser_sigs, blen.
  rewrite (Permutation.Permutation_length P), (sig_sort_perm _ _ P D). reflexivity.
Qed.
Print Assumptions C06_signature_map_order.

Definition ex_tx : tx :=
  {| t_version := 5; t_asset := 7;
     t_inputs := [ {| i_hash := 11; i_index := 3; i_genesis := [];
                      i_deposit := Some {| d_chain := 1; d_asset_key := [48; 120]; d_tx := [1; 2; 3];
                                           d_index := 9; d_amount := 100000000 |};
                      i_mint := Some {| m_group := [75]; m_batch := 2; m_amount := 0 |} |} ];
     t_outputs := [ {| o_type := 161; o_amount := 65536; o_keys := [5; 6]; o_mask := 8;
                       o_script := [255; 254; 1];
                       o_withdrawal := Some {| w_address := [97]; w_tag := [] |} |} ];
     t_refs := [12]; t_extra := [1; 2];
     t_auth := SigMaps [[(0, 3); (2, 4)]; []] |}.
Definition ex_agg (s : list N) : tx :=
  {| t_version := 5; t_asset := 7; t_inputs := []; t_outputs := []; t_refs := []; t_extra := [];
     t_auth := Aggregate 9 s |}.

Ltac wf_by_compute :=
  repeat match goal with
         | |- _ /\ _ => split
         | |- Forall _ _ => constructor
         | |- True => exact I
         | |- _ = _ => vm_compute; reflexivity
         | |- _ < _ => vm_compute; reflexivity
         | |- _ <= _ => vm_compute; discriminate
         | |- _ => progress cbv [wf_tx wf_tx_lim wf_input wf_output wf_opt wf_deposit wf_mint wf_auth wf_sigs
                                  wf_entry wf_agg keys_inc key_lt_all h_ok sig_ok u64_ok
                                  ex_tx ex_agg t_version t_asset t_inputs t_outputs t_refs t_extra t_auth
                                  i_hash i_deposit i_mint o_type o_keys o_mask d_chain d_index m_batch fst snd]
         end.

Example C06_ex_wf : wf_tx ex_tx.
Proof. wf_by_compute. Qed.
Example C06_ex_roundtrip : unmarshal (ser_tx ex_tx) = Ok ex_tx /\ blen (ser_tx ex_tx) = 443.
Proof. vm_compute. split; reflexivity. Qed.
(* sparse and ordinary mask forms on both sides of max/8+1 > 2*len *)
Example C06_ex_agg_wf : wf_tx (ex_agg [1; 35]) /\ wf_tx (ex_agg [1; 31]) /\ wf_payload ex_tx.
Proof. split; [|split]; [wf_by_compute | wf_by_compute | apply (wf_tx_lim_payload slice_limit); [vm_compute; discriminate | exact (proj1 C06_ex_wf)]]. Qed.
Example C06_ex_agg_forms :
  skipn 114 (ser_tx (ex_agg [1; 35])) = [1; 0; 2; 0; 1; 0; 35]
  /\ skipn 114 (ser_tx (ex_agg [1; 31])) = [0; 0; 4; 2; 0; 0; 128]
  /\ unmarshal (ser_tx (ex_agg [1; 35])) = Ok (ex_agg [1; 35])
  /\ unmarshal (ser_tx (ex_agg [1; 31])) = Ok (ex_agg [1; 31]).
Proof. vm_compute. repeat split; reflexivity. Qed.
(* a non-canonical input is refused (the ordinary mask form where the sparse one is due), and
   the encoder panics on a repeated signer *)
Example C06_ex_noncanonical :
  unmarshal (firstn 114 (ser_tx (ex_agg [1; 35])) ++ [0; 0; 5; 2; 0; 0; 0; 8]) = Err
  /\ enc_tx (ex_agg [3; 3]) = Panic.
Proof. vm_compute. split; reflexivity. Qed.
