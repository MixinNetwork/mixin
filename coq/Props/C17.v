(* C17 — asset supply equals the value held in unconsumed outputs.
   Model: Mixin.Model.Finalize.  A history is a list of store calls (genesis
   load, StartNewRound, LockGhostKeys, LockUTXOs, WriteTransaction,
   WriteSnapshot) run from the empty store.  It is VALIDATED when every
   transaction, at the moment a snapshot finalizes it for the first time,
   satisfies the facts validation establishes (valid_tx):
     - C01: its ordinary inputs are distinct existing output records of its own
       asset and their amounts sum to its outputs (a deposit / mint has one
       input and outputs summing to the deposited / minted amount; a genesis
       transaction only allocates); only a withdrawal-submit transaction
       carries withdrawal-submit outputs; no slash outputs (not implemented);
     - C03: every ordinary input is locked by this transaction, and locks for a
       transaction hash are only taken on the inputs of the transaction with
       that hash (vop of OpLock);
   and transaction hashes identify transactions (C06, collision freedom: Kinj). *)
From Coq Require Import List ZArith NArith Bool Lia.
Require Import Mixin.Base.Res Mixin.Gen.Consts Mixin.Model.Fixed Mixin.Model.Finalize Mixin.Proofs.Finalize.
Require Import Mixin.Proofs.FinalizeValidateLink.
Import ListNotations.
Open Scope Z_scope.

(* In every state reachable by a validated history, for every asset:
   recorded total = genesis + finalized deposits + finalized mints - finalized
   withdrawal submissions (supply_flow, over the finalization records)
   = sum of the output records not consumed by a finalized transaction,
   and 0 <= total <= capacity.  By induction over the history. *)
Theorem C17_supply : forall (K : list tx),
  (forall t1 t2, In t1 K -> In t2 K -> t_hash t1 = t_hash t2 -> t1 = t2) ->
  forall ops, validated_history K empty_state ops ->
  forall a, let s := run empty_state ops in
    total_of s a = supply_flow s a /\
    total_of s a = unconsumed_sum s a /\
    0 <= total_of s a <= capacity a.
Proof. exact supply_theorem. Qed.
Print Assumptions C17_supply.

(* Two of the three clauses need no validity hypothesis at all: in every state
   reachable by ANY history of store calls, the recorded total is genesis +
   finalized deposits + finalized mints - finalized withdrawal submissions (each
   finalized transaction counted exactly once, whatever snapshots presented it
   again), and it lies within 0 .. capacity. *)
Theorem C17_flow_and_bounds_every_history : forall ops a,
  let s := run empty_state ops in
  total_of s a = supply_flow s a /\ 0 <= total_of s a <= capacity a.
Proof.
  intros ops a s. destruct (run_flow ops _ flow_inv_empty) as [_ _ Hf Hb]. exact (conj (Hf a) (Hb a)).
Qed.
Print Assumptions C17_flow_and_bounds_every_history.

(* One finalization step: a validated, not yet finalized transaction moves the
   total and the unconsumed sum of its asset by the same amount (its
   supply_delta), so the ledger invariant is kept. *)
Theorem C17_step : forall (K : list tx),
  (forall t1 t2, In t1 K -> In t2 K -> t_hash t1 = t_hash t2 -> t1 = t2) ->
  forall s t sn s', inv K s -> lookup eq1 (s_txs s) (t_hash t) = Some t ->
  finalized s (t_hash t) = false -> valid_tx s t -> finalize_tx s t sn = Ok s' -> inv K s'.
Proof. exact finalize_fresh_inv. Qed.
Print Assumptions C17_step.

(* The capacity is never negative, so an asset without any record (total 0) is within bounds. *)
Theorem C17_capacity_nonneg : forall a, 0 <= capacity a.
Proof. exact capacity_nonneg. Qed.
Print Assumptions C17_capacity_nonneg.

(* a concrete validated history of several steps, for the examples below *)

Definition XIN := Consts.Fin_Asset_XIN.
Definition BTC := Consts.Fin_Asset_BTC.
Definition o_ (ty amt : Z) (k : N) : output := {| o_type := ty; o_amount := amt; o_keys := [k] |}.
Definition mk (h a : N) (ins : list input) (outs : list output) : tx :=
  {| t_hash := h; t_asset := a; t_inputs := ins; t_outputs := outs; t_extra := []; t_refs := []; t_cust := None |}.

Definition g1 := mk 11 XIN [IGenesis] [o_ ot_script 1000 101].
Definition d1 := mk 12 BTC [IDeposit 7 8 50] [o_ ot_script 50 102].
Definition x1 := mk 13 XIN [IOrd 11 0] [o_ ot_script 400 103; o_ ot_script 600 104].
Definition w1 := mk 14 BTC [IOrd 12 0] [{| o_type := ot_submit; o_amount := 20; o_keys := [] |}; o_ ot_script 30 105].
Definition exK := [g1; d1; x1; w1].

Definition sn_ (h node round : N) (txs : list N) (topo : N) : snapshot :=
  {| sn_hash := h; sn_whash := h; sn_node := node; sn_round := round; sn_ts := 1000 + topo;
     sn_refs := (5, 6)%N; sn_txs := txs; sn_topo := topo |}.

Definition ex_ops : list op :=
  [ OpGenesis (1, 2)%N [(sn_ 900 40 0 [11%N] 0, g1)];
    OpRound 50 1 (5, 6)%N; OpRound 51 1 (5, 6)%N;
    OpWriteTx d1; OpSnapshot (sn_ 901 50 1 [12%N] 1) [];
    OpGhost [103; 104]%N 13; OpLock [(11, 0)%N] 13; OpWriteTx x1;
    OpLock [(12, 0)%N] 14; OpWriteTx w1;
    OpSnapshot (sn_ 902 51 1 [13; 14; 12]%N 2) [50%N] ].

Lemma exK_inj : forall t1 t2, In t1 exK -> In t2 exK -> t_hash t1 = t_hash t2 -> t1 = t2.
Proof.
  intros t1 t2 H1 H2. cbn in H1, H2.
  destruct H1 as [<-|[<-|[<-|[<-|[]]]]]; destruct H2 as [<-|[<-|[<-|[<-|[]]]]]; cbn; intros E;
    try reflexivity; discriminate E.
Qed.

(* the five branches are the fields of valid_tx in order (v_hash, v_nodup, v_inputs,
   v_noslash, v_shape); [pick] chooses the disjunct of v_shape *)
Ltac solve_valid pick :=
  constructor;
  [ cbn; discriminate
  | cbn; repeat constructor; cbn; intuition discriminate
  | intros k Hk; cbn in Hk; repeat (destruct Hk as [<-|Hk]; [eexists; split; [vm_compute; reflexivity|split; reflexivity]|]); destruct Hk
  | vm_compute; reflexivity
  | pick; vm_compute; repeat eexists; repeat split; try reflexivity; try (intros; reflexivity); try (intros X; exfalso; apply X; reflexivity) ].

(* one member of a batch: its body and the state after it by evaluation; [tac] proves it
   valid (okf) from Hf, that it is not finalized yet.  The states are left as the store
   calls that produce them: only the virtual machine evaluates them. *)
Ltac member okf tac :=
  eapply (members_cons okf); [vm_compute; reflexivity|intros Hf; tac|vm_compute; reflexivity|].

(* the history really finalizes four transactions over two assets, and the three
   quantities agree with the expected values *)
Example C17_ex_values :
  let s := run empty_state ex_ops in
  length (s_fin s) = 4%nat /\
  total_of s XIN = 1000 /\ unconsumed_sum s XIN = 1000 /\ supply_flow s XIN = 1000 /\
  total_of s BTC = 30 /\ unconsumed_sum s BTC = 30 /\ supply_flow s BTC = 30.
Proof. vm_compute. repeat split; reflexivity. Qed.

(* The output-shape facts of valid_tx are necessary.  finalize_tx treats every output type as UnspentOutputs / writeTotalInAsset do: a
   custodian-slash output is neither recorded as an output nor subtracted from the
   total.  A withdrawal submission [submit 20; change 20; slash 10] over a 50 input -
   which only validation (Outputs[1:] must all be script) keeps out - makes value
   vanish: the model reproduces the leak, so C17_supply cannot drop v_noslash /
   v_shape.  The harness presents this shape (and every other type code at every
   output index of every transaction kind) to the real Validate. *)
Definition w_bad := mk 14 BTC [IOrd 12 0]
  [{| o_type := ot_submit; o_amount := 20; o_keys := [] |}; o_ ot_script 20 105; o_ ot_slash 10 106].

Definition leak_ops : list op :=
  [ OpGenesis (1, 2)%N [(sn_ 900 40 0 [11%N] 0, g1)];
    OpRound 50 1 (5, 6)%N; OpRound 51 1 (5, 6)%N;
    OpWriteTx d1; OpSnapshot (sn_ 901 50 1 [12%N] 1) [];
    OpLock [(12, 0)%N] 14; OpWriteTx w_bad;
    OpSnapshot (sn_ 902 51 1 [14%N] 2) [] ].

Theorem C17_unvalidated_shape_refuted :
  exists ops a, let s := run empty_state ops in
    finalized s 14%N = true /\ total_of s a = supply_flow s a /\ unconsumed_sum s a < total_of s a.
Proof. exists leak_ops, BTC. vm_compute. repeat split; reflexivity. Qed.
Print Assumptions C17_unvalidated_shape_refuted.

(* A transaction ACCEPTED by the validation model against a view of the state
   (view_of: the view's output reads return the state's records) satisfies
   valid_tx: conservation, existence, same asset and distinct slots come from
   C01_conservation, the output shapes (no slash output; submit outputs only in
   a withdrawal-submit transaction; deposits / mints with script outputs only)
   from the per-type validators (accepted_output_shapes).  Remaining hypotheses,
   which validation cannot know:
     H_hash_nonzero   : the payload hash is not the zero hash;
     H_locked_by_this : every spent output is locked by this transaction (C03;
                        LockUTXOs runs after Validate, which only sees "unlocked
                        or locked by this hash"). *)
Theorem C17_valid_tx_of_validated : forall s v f h ts fork t t',
  V.validate v f h ts fork t = Ok tt ->
  view_of s v -> related t h t' ->
  h <> 0%N -> locked_by s t' ->
  valid_tx s t'.
Proof. exact validate_valid_tx. Qed.
Print Assumptions C17_valid_tx_of_validated.

(* The supply statement for every history in which each transaction, when a
   snapshot first finalizes it, was accepted by the validation model against a
   view of the state it is finalized on (accepted_member = that acceptance +
   H_hash_nonzero + H_locked_by_this).  Further named hypotheses:
     H_hash_injective      : hashes identify the transactions of the history (C06);
     H_lock_discipline     : OpLock locks exactly the inputs of a known transaction under its hash (vop, C03);
     H_genesis_allocations : the transactions of LoadGenesis, which are never
                             validated, satisfy valid_tx directly (inside vgen). *)
Theorem C17_supply_of_validated : forall (K : list tx),
  (forall t1 t2, In t1 K -> In t2 K -> t_hash t1 = t_hash t2 -> t1 = t2) ->
  forall ops, validated_history_v K empty_state ops ->
  forall a, let s := run empty_state ops in
    total_of s a = supply_flow s a /\
    total_of s a = unconsumed_sum s a /\
    0 <= total_of s a <= capacity a.
Proof.
  intros K Kinj ops H. exact (supply_theorem K Kinj ops (validated_history_v_impl K _ _ H)).
Qed.
Print Assumptions C17_supply_of_validated.

(* the example history again, its transactions accepted by the validation model *)

Definition vscript : V.bytes := [255; 254; 1]%N.
Definition vbase : V.view :=
  {| V.v_utxo := fun _ _ => None; V.v_tx := fun _ => None; V.v_deposit_lock := fun _ => 0%N;
     V.v_last_mint := None; V.v_nodes := fun _ => [];
     V.v_custodian := fun _ => Some {| V.c_addr := (5%N, 6%N); V.c_nodes := [] |};
     V.v_asset := fun _ => None; V.v_ghost_ok := fun _ _ _ => true |}.
Definition vfacts : V.facts :=
  {| V.f_check_key := fun _ => true; V.f_agg_ok := true; V.f_deposit_sig := true; V.f_claim_sig := true;
     V.f_accept_sig := true; V.f_cancel_ghost := Ok true; V.f_cancel_sig := true; V.f_cust_prev_sig := true;
     V.f_cust_node_sigs := [] |}.
Definition vout (ty a : Z) (k : N) : V.output :=
  {| V.o_type := ty; V.o_amount := a; V.o_keys := [k]; V.o_mask := 9%N; V.o_script := vscript; V.o_withdrawal := None |}.
Definition vin (h : N) (i : Z) : V.input :=
  {| V.i_hash := h; V.i_index := i; V.i_genesis := None; V.i_deposit := None; V.i_mint := None |}.
Definition vtx (a : N) (ins : list V.input) (outs : list V.output) (sigs : option (list V.sigmap)) : V.tx :=
  {| V.t_version := Consts.ValTxVersionHashSignature; V.t_asset := a; V.t_inputs := ins; V.t_outputs := outs;
     V.t_refs := []; V.t_extra := []; V.t_agg := None; V.t_sigs := sigs |}.

Definition vd1 : V.tx :=
  vtx BTC [{| V.i_hash := 0%N; V.i_index := 0; V.i_genesis := None; V.i_mint := None;
              V.i_deposit := Some {| V.d_chain := 7%N; V.d_key := [8]%N; V.d_key_trim := true; V.d_txlen := 4;
                                     V.d_tx_trim := true; V.d_index := 0; V.d_amount := 50 |} |}]
      [vout V.ot_script 50 102] (Some [[(0, false)]]).
Definition vx1 : V.tx := vtx XIN [vin 11 0] [vout V.ot_script 400 103; vout V.ot_script 600 104] (Some [[(0, true)]]).
Definition vw1 : V.tx :=
  vtx BTC [vin 12 0]
      [{| V.o_type := V.ot_wsubmit; V.o_amount := 20; V.o_keys := []; V.o_mask := 0%N; V.o_script := [];
          V.o_withdrawal := Some (34, 0) |}; vout V.ot_script 30 105] (Some [[(0, true)]]).

(* t' (already computed) was accepted: witness transaction vt, validated against the canonical view of the state *)
Ltac solve_accepted vt :=
  split; [|split];
  [ match goal with
    | |- exists v f ts fork t, view_of ?s v /\ _ =>
        exists (view_from s vscript vbase), vfacts, 1, false, vt;
        split; [apply view_from_ok|split; [repeat split; reflexivity|vm_compute; reflexivity]]
    end
  | cbn; discriminate
  | intros k u' Hk Hl; cbn in Hk;
    repeat (destruct Hk as [<-|Hk]; [vm_compute in Hl; injection Hl as <-; reflexivity|]); destruct Hk ].

Example C17_ex_validated_v : validated_history_v exK empty_state ex_ops.
Proof.
  unfold ex_ops.
  (* genesis: never validated, valid_tx directly *)
  constructor.
  { intros s1 H1. vm_compute in H1. injection H1 as <-. split; [cbn; auto|]. split; [|intros s2 _; exact I].
    member valid_tx ltac:(solve_valid ltac:(right; right; right)). exact I. }
  constructor; [exact I|]. constructor; [exact I|]. constructor; [cbn; auto|].
  (* snapshot of the deposit: accepted by the validation model *)
  constructor.
  { member accepted_member ltac:(solve_accepted vd1). exact I. }
  constructor; [exact I|].
  constructor; [exists x1; cbn; repeat split; auto; discriminate|].
  constructor; [cbn; auto|].
  constructor; [exists w1; cbn; repeat split; auto; discriminate|].
  constructor; [cbn; auto 6|].
  (* the batch: transfer and withdrawal submission accepted by the validation model; the deposit presented again *)
  constructor; [|constructor].
  member accepted_member ltac:(solve_accepted vx1). member accepted_member ltac:(solve_accepted vw1).
  member accepted_member ltac:(vm_compute in Hf; discriminate Hf). exact I.
Qed.

(* the same history is validated in the sense of C17_supply *)
Example C17_ex_validated : validated_history exK empty_state ex_ops.
Proof. exact (validated_history_v_impl exK _ _ C17_ex_validated_v). Qed.

Example C17_ex_instance : forall a, let s := run empty_state ex_ops in
  total_of s a = supply_flow s a /\ total_of s a = unconsumed_sum s a /\ 0 <= total_of s a <= capacity a.
Proof. exact (C17_supply exK exK_inj ex_ops C17_ex_validated). Qed.

Example C17_ex_instance_v : forall a, let s := run empty_state ex_ops in
  total_of s a = supply_flow s a /\ total_of s a = unconsumed_sum s a /\ 0 <= total_of s a <= capacity a.
Proof. exact (C17_supply_of_validated exK exK_inj ex_ops C17_ex_validated_v). Qed.
