(* C11 - historical consensus views depend only on earlier ledger records.
   Property theorems, then non-vacuity examples; lemmas are in Proofs/Membership.v, the executable
   model (Model/Membership.v) is run against kernel/node.go, kernel/graph.go,
   kernel/slash.go, kernel/election.go and storage/badger_{node,custodian}.go
   by harness/cmd/c11. *)
From Coq Require Import List ZArith NArith Bool.
Require Import Mixin.Base.Res Mixin.Model.Membership Mixin.Proofs.Membership Mixin.Proofs.MembershipPerm.
Import ListNotations.
Open Scope N_scope.

(* The cached lookup NodesListWithoutState(th) over the state sequences built by
   LoadConsensusNodes equals the direct computation, which is a function of the
   records with timestamp < th only: latest record per node id, (accepted
   filter,) order by (timestamp, id), running consensus index. *)
Theorem C11_cached_eq_direct : forall recs genesis epoch mainnet th ao,
  th < two64 ->
  nodes_list (load_node recs genesis epoch mainnet) th ao
  = assign_index 0 (sort_recs (accepted_filter ao (latest_by_id
      (filter (fun r => r_ts r <? th) (sort_recs recs))))).
Proof.
  intros. rewrite nodes_list_load by assumption. unfold node_sequence_without_state.
  rewrite take_before_filter by apply sort_recs_sorted. reflexivity.
Qed.
Print Assumptions C11_cached_eq_direct.

(* the same for any record list already ordered by timestamp *)
Theorem C11_cached_eq_direct_sorted : forall all th ao,
  th < two64 -> ts_sorted all ->
  lookup_seq th (rev (build_sequences ao all)) = node_sequence_without_state th ao all.
Proof. exact (fun all th ao => lookup_seq_direct th ao all). Qed.
Print Assumptions C11_cached_eq_direct_sorted.

(* Appending any records with timestamp >= th (in any order, interleaving with
   the existing ones after sorting) changes none of the views at any t <= th:
   member list, accepted list with consensus indexes, both thresholds, signer
   ids and keys of any chain and round, pledging node, predicted removal,
   elected operator, accepted-or-pledging lookup. *)
Theorem C11_append_later : forall recs later genesis epoch mainnet ch round op id th t,
  th < two64 -> t <= th -> Forall (fun r => th <= r_ts r) later ->
  views_at (load_node (recs ++ later) genesis epoch mainnet) ch round op id t
  = views_at (load_node recs genesis epoch mainnet) ch round op id t.
Proof.
  intros recs later genesis epoch mainnet ch round op id th t Hth Ht Hl. symmetry.
  apply agree_views; [exact (N.le_lt_trans _ _ _ Ht Hth)|].
  apply (agree_le th); [exact Ht|]. apply load_agree; assumption.
Qed.
Print Assumptions C11_append_later.

(* storage.ReadAllNodes(th, withState) ignores records after th *)
Theorem C11_read_all_append_later : forall th store later,
  Forall (fun r => th < r_ts r) later ->
  read_all_with_state th (store ++ later) = read_all_with_state th store /\
  read_all_latest th (store ++ later) = read_all_latest th store.
Proof.
  intros th store later H. pose proof (read_all_append_later th store later H) as E.
  split; [exact E|]. unfold read_all_latest. rewrite E. reflexivity.
Qed.
Print Assumptions C11_read_all_append_later.

(* Custodian lookups: for every parser outcome function, every sequence of
   queries - each against its own state of the history - answered through the
   (transaction, genesis) cache started empty equals the uncached answers. *)
Theorem C11_custodian_cache : forall (P : Type) (parse : N -> bool -> res P) qs,
  run_queries P parse qs [] = map (fun q => read_custodian_direct P parse (fst q) (snd q)) qs.
Proof. intros. apply run_queries_eq. apply cache_ok_nil. Qed.
Print Assumptions C11_custodian_cache.

(* A custodian record written at a later time does not change the lookup *)
Theorem C11_custodian_append_later : forall (P : Type) (parse : N -> bool -> res P) recs ts ts' tx,
  ts < ts' ->
  read_custodian_direct P parse (cust_put ts' tx recs) ts = read_custodian_direct P parse recs ts.
Proof. intros. unfold read_custodian_direct. apply cust_scan_put_later. assumption. Qed.
Print Assumptions C11_custodian_append_later.

(* The Go map inside nodeSequenceWithoutState (and readAllNodes) is iterated in
   a random order.  (readAllNodes sorts its result by timestamp alone, so records
   of one timestamp come back in map order; the model takes the result as a set
   and orders it by (timestamp, id).)  For the map as an association list with distinct ids (it
   has them: latest_by_id_nodup) every permutation gives the same sequence; and
   a node all of whose map iterations - one arbitrary order per call - are
   permuted is the same node, so every view (member lists with indexes,
   thresholds, signer ids and keys, pledging node, predicted removal, elected
   operator, lookup by id) is unchanged. *)
Theorem C11_map_order_irrelevant :
  (forall ao m m', Permutation.Permutation m m' -> NoDup (map r_id m) ->
     sequence_of_map ao m = sequence_of_map ao m') /\
  (forall th ao all, node_sequence_without_state th ao all
     = sequence_of_map ao (latest_by_id (take_before th all)) /\
     NoDup (map r_id (latest_by_id (take_before th all)))) /\
  (forall iter, is_iteration iter ->
     (forall th ao all, nsws_with iter th ao all = node_sequence_without_state th ao all) /\
     (forall th store, read_all_latest_with iter th store = read_all_latest th store) /\
     (forall recs genesis epoch mainnet ch round op id t,
        views_at (load_node_with iter recs genesis epoch mainnet) ch round op id t
        = views_at (load_node recs genesis epoch mainnet) ch round op id t)).
Proof.
  split; [exact sequence_of_map_perm|]. split.
  - intros th ao all. split; [apply nsws_is_sequence_of_map|apply latest_by_id_nodup].
  - intros iter Hi. split; [|split].
    + intros. apply nsws_with_eq. exact Hi.
    + intros. apply read_all_latest_with_eq. exact Hi.
    + intros. rewrite load_node_with_eq by exact Hi. reflexivity.
Qed.
Print Assumptions C11_map_order_irrelevant.

Definition ex_epoch : N := 1700000000000000000.
Definition ex_gen (i : N) : nrec := mkrec ex_epoch (10 + i) (100 + i) (200 + i) (300 + i) Accepted.
Definition ex_recs : list nrec :=
  map ex_gen [7; 3; 5; 1; 8; 2; 6; 4] ++
  [mkrec (ex_epoch + 2 * one_day) 50 150 250 350 Pledging].
Definition ex_later : list nrec :=
  [mkrec (ex_epoch + 2 * one_day + 1) 50 150 250 351 Accepted;
   mkrec (ex_epoch + 2 * one_day + 1) 11 101 201 352 Removed].
Definition ex_ch : mchain := mkchain (Some (mkrec 0 60 160 260 0 Pledging)) false.
Definition ex_t : N := ex_epoch + 2 * one_day + 1.

(* at ex_t: nine members, a pledging node, threshold 6, nine keys on a pledging chain *)
Example C11_views_nontrivial :
  let v := views_at (load_node ex_recs (map r_id (map ex_gen [1;2;3;4;5;6;7;8])) ex_epoch false)
                    ex_ch 0 9 50 ex_t in
  length (v_list v) = 9%nat /\ length (v_accepted v) = 8%nat /\
  v_threshold_final v = Ok 6 /\ length (v_keys v) = 9%nat /\
  option_map c_id (v_pledging v) = Some 50 /\ v_elect v = Ok 17.
Proof. vm_compute. repeat split; reflexivity. Qed.

(* the hypothesis of C11_append_later is met by ex_later at th = ex_t, and the
   later records do change the views one nanosecond later *)
Example C11_append_later_applies :
  Forall (fun r => ex_t <= r_ts r) ex_later /\
  views_at (load_node (ex_recs ++ ex_later) [] ex_epoch false) ex_ch 0 9 50 (ex_t + 1)
  <> views_at (load_node ex_recs [] ex_epoch false) ex_ch 0 9 50 (ex_t + 1).
Proof.
  split; [repeat constructor; vm_compute; discriminate|].
  vm_compute. discriminate.
Qed.

(* a predicted removal exists inside the accept window of day 3 *)
Example C11_removal_predicted :
  option_map c_id (removing_at (load_node (ex_recs ++ ex_later) [] ex_epoch false)
                               (ex_epoch + 3 * one_day + 14 * hour_ns)) = Some 12.
Proof. vm_compute. reflexivity. Qed.

(* custodian: the same body is accepted as the genesis record and refused later *)
Definition ex_parse (tx : N) (g : bool) : res N := if (tx =? 7) && negb g then Err else Ok (tx * 2).
Example C11_custodian_nontrivial :
  run_queries N ex_parse [([(10, 7); (20, 7)], 15); ([(10, 7); (20, 7)], 25); ([(10, 7); (20, 8)], 25)] []
  = [Ok (Some (7, 10, 14)); Err; Ok (Some (8, 20, 16))].
Proof. vm_compute. reflexivity. Qed.

(* map order: reversing every map iteration (a genuine permutation of a map with
   nine entries) leaves the views unchanged, while the unsorted lists do differ *)
Definition ex_rev_iter : iteration := fun _ _ m => rev m.
Example C11_map_order_example :
  is_iteration ex_rev_iter /\
  rev (latest_by_id (take_before ex_t (sort_recs ex_recs))) <> latest_by_id (take_before ex_t (sort_recs ex_recs)) /\
  length (latest_by_id (take_before ex_t (sort_recs ex_recs))) = 9%nat /\
  views_at (load_node_with ex_rev_iter ex_recs [] ex_epoch false) ex_ch 0 9 50 ex_t
  = views_at (load_node ex_recs [] ex_epoch false) ex_ch 0 9 50 ex_t.
Proof.
  split; [intros th ao m; apply Permutation.Permutation_rev|].
  split; [vm_compute; discriminate|]. split; vm_compute; reflexivity.
Qed.
