(* C09 - a snapshot is final only with a threshold certificate from historical
   keys; a remembered verification equals a fresh one.
   Property theorems, then non-vacuity examples; lemmas are in Proofs/Finality.v, the executable model
   (Model/Finality.v over Model/Membership.v) is run against
   kernel/graph.go verifyFinalization / cacheVerifyCosi by harness/cmd/c09.
   The signature equation (aggregate the selected keys, Schnorr-verify over the
   hash) is the abstract predicate [agg_verify]: that a verifying triple cannot
   be re-used for other keys or another hash is the crypto layer's concern
   (C13/C14) and appears below only as an explicit hypothesis. *)
From Coq Require Import List ZArith NArith Bool.
Require Import Mixin.Base.Res Mixin.Model.Membership Mixin.Model.Finality
               Mixin.Proofs.Membership Mixin.Proofs.Finality Mixin.Proofs.MembershipPerm.
Import ListNotations.
Open Scope N_scope.

(* Accepted => version and signature present, mask non-zero, timestamp not
   before the epoch, and a certificate for the key set of the effective
   timestamp: every mask bit below the number of keys at that time, at least
   threshold(ts) bits, the aggregate predicate true for exactly the masked keys
   of that historical key set and the snapshot hash, signers = the masked ids.
   The only alternative is the pre-fork mainnet retry with the key set of the
   start of the node-operation window (strictly larger key set), never taken
   once the signer-set fork is active or off mainnet. *)
Theorem C09_sound : forall agg_verify nd ch s signers,
  verify_fresh agg_verify nd ch s = Ok (signers, true) ->
  s_version s = snapshot_version /\ s_has_sig s = true /\ s_mask s <> 0 /\
  n_epoch nd <= effective_ts s /\
  (certificate_ok agg_verify nd ch s (effective_ts s) signers \/
   (use_predictive nd (effective_ts s) = false /\ accept_hour nd (effective_ts s) = true /\
    (length (consensus_keys nd ch (s_round s) (effective_ts s))
     < length (consensus_keys nd ch (s_round s) (legacy_ts nd (effective_ts s))))%nat /\
    certificate_ok agg_verify nd ch s (legacy_ts nd (effective_ts s)) signers)).
Proof. exact verify_fresh_sound. Qed.
Print Assumptions C09_sound.

(* [certificate_ok] unfolded, so that C09_sound reads without Proofs/Finality.v *)
Theorem C09_certificate_meaning : forall agg_verify nd ch s ts signers,
  certificate_ok agg_verify nd ch s ts signers ->
  exists thr sel,
    consensus_threshold nd ts true = Ok thr /\ 0 < thr /\
    thr <= N.of_nat (length (mask_keys (s_mask s))) /\
    Forall (fun i => (i < length (consensus_keys nd ch (s_round s) ts))%nat) (mask_keys (s_mask s)) /\
    select (consensus_keys nd ch (s_round s) ts) (mask_keys (s_mask s)) = Some sel /\
    agg_verify sel (s_hash s) (s_sig s) = true /\
    select (consensus_ids nd ch (s_round s) ts) (mask_keys (s_mask s)) = Some signers.
Proof. intros agg_verify nd ch s ts signers H. exact H. Qed.
Print Assumptions C09_certificate_meaning.

(* With the signer-set fork active (or off mainnet) and an ordinary hash the
   certificate is over the key set at the snapshot's own timestamp. *)
Theorem C09_sound_at_timestamp : forall agg_verify nd ch s signers,
  use_predictive nd (s_ts s) = true -> s_hash s <> hack_hash ->
  verify_fresh agg_verify nd ch s = Ok (signers, true) ->
  certificate_ok agg_verify nd ch s (s_ts s) signers.
Proof.
  intros agg_verify nd ch s signers Hp Hh H.
  apply verify_fresh_sound in H. destruct H as (_ & _ & _ & _ & H).
  rewrite (effective_ts_ordinary s Hh) in H. destruct H as [H|(Hn & _)]; [exact H|congruence].
Qed.
Print Assumptions C09_sound_at_timestamp.

(* The memo key (hash || signature || publics || uint64(threshold) || mask) is
   injective in every argument it contains, for thresholds that are Go ints. *)
Theorem C09_memo_key_injective : forall h1 s1 p1 t1 m1 h2 s2 p2 t2 m2,
  int_range t1 -> int_range t2 ->
  memo_key h1 s1 p1 t1 m1 = memo_key h2 s2 p2 t2 m2 ->
  h1 = h2 /\ s1 = s2 /\ p1 = p2 /\ t1 = t2 /\ m1 = m2.
Proof. exact memo_key_inj. Qed.
Print Assumptions C09_memo_key_injective.

(* For EVERY sequence of finalization queries - each against its own membership
   state, chain and snapshot - answered through the one memo table started
   empty, every answer equals the memoryless verification.  The result depends
   on (hash, signature, mask, publics, threshold) - all in the key - and on the
   id vector, which is not in the key: the hypothesis is that ids are a function
   [id_of] of the signer keys (they are: the id is the hash of the address
   derived from the spend key).  The membership lists are shorter than 2^62. *)
Theorem C09_memo : forall agg_verify (id_of : N -> N) qs,
  Forall (query_ok id_of) qs ->
  run_memo agg_verify qs []
  = map (fun q => verify_fresh agg_verify (fst (fst q)) (snd (fst q)) (snd q)) qs.
Proof. intros. apply (run_memo_fresh agg_verify id_of); [apply tbl_ok_nil|assumption]. Qed.
Print Assumptions C09_memo.

(* the hypothesis of C09_memo follows from the stored records *)
Theorem C09_memo_hypothesis_from_records : forall (id_of : N -> N) recs genesis epoch mainnet ch s,
  N.of_nat (length recs) < 2 ^ 62 ->
  Forall (fun r => r_id r = id_of (r_key r)) recs ->
  (forall info, ch_info ch = Some info -> r_id info = id_of (r_key info)) ->
  query_ok id_of (load_node recs genesis epoch mainnet, ch, s).
Proof.
  intros. split; cbn [fst snd].
  - apply small_node_of_records; assumption.
  - apply ids_from_keys_of_records; assumption.
Qed.
Print Assumptions C09_memo_hypothesis_from_records.

(* Tampering: an accepted certificate feeds the predicate exactly the masked
   keys of the key set, the snapshot hash and the signature (C09_sound); over a
   duplicate-free key set two masks selecting the same keys are the same mask, so
   any change of mask, hash, signature or key set changes the predicate's
   arguments. *)
Theorem C09_tamper_mask : forall (keys : list N) m1 m2 sel,
  NoDup keys -> m1 < two64 -> m2 < two64 ->
  select keys (mask_keys m1) = Some sel -> select keys (mask_keys m2) = Some sel -> m1 = m2.
Proof. exact (@select_mask_inj N). Qed.
Print Assumptions C09_tamper_mask.

(* If the predicate binds a signature to one key selection and one hash (the
   crypto layer's property), then after one certificate is accepted no snapshot
   carrying the same signature with another mask or another hash has a
   certificate for the same key set. *)
Theorem C09_tamper_rejected : forall agg_verify nd ch s s' ts signers signers',
  (forall sel sel' h h' sg, agg_verify sel h sg = true -> agg_verify sel' h' sg = true -> sel = sel' /\ h = h') ->
  NoDup (consensus_keys nd ch (s_round s) ts) ->
  s_round s' = s_round s -> s_sig s' = s_sig s -> s_mask s < two64 -> s_mask s' < two64 ->
  certificate_ok agg_verify nd ch s ts signers ->
  certificate_ok agg_verify nd ch s' ts signers' ->
  s_mask s' = s_mask s /\ s_hash s' = s_hash s.
Proof.
  intros agg_verify nd ch s s' ts signers signers' Hbind Hnd Hr Hs Hm Hm' C C'.
  destruct C as (thr & sel & _ & _ & _ & _ & S1 & A1 & _).
  destruct C' as (thr' & sel' & _ & _ & _ & _ & S2 & A2 & _).
  rewrite Hr, Hs in *. destruct (Hbind _ _ _ _ _ A1 A2) as [-> Hh].
  split; [|symmetry; exact Hh].
  symmetry. apply (C09_tamper_mask _ _ _ sel' Hnd Hm Hm' S1 S2).
Qed.
Print Assumptions C09_tamper_rejected.

(* The decision does not depend on the order in which the Go runtime iterates
   the node map while the membership views are built: with or without the memo. *)
Theorem C09_map_order_irrelevant : forall agg_verify iter recs genesis epoch mainnet ch s t,
  is_iteration iter ->
  verify_fresh agg_verify (load_node_with iter recs genesis epoch mainnet) ch s
  = verify_fresh agg_verify (load_node recs genesis epoch mainnet) ch s /\
  verify_finalization agg_verify (load_node_with iter recs genesis epoch mainnet) ch s t
  = verify_finalization agg_verify (load_node recs genesis epoch mainnet) ch s t.
Proof. intros. rewrite load_node_with_eq by assumption. split; reflexivity. Qed.
Print Assumptions C09_map_order_irrelevant.

Definition ex_epoch : N := 1700000000000000000.
Definition ex_gen (i : N) : nrec := mkrec ex_epoch (10 + i) (100 + i) (200 + i) (300 + i) Accepted.
Definition ex_recs : list nrec := map ex_gen [7; 3; 5; 1; 8; 2; 6; 4].
Definition ex_node : mnode := load_node ex_recs (map r_id ex_recs) ex_epoch false.
Definition ex_chain : mchain := mkchain None true.
Fixpoint nl_eqb (a b : list N) : bool :=
  match a, b with [], [] => true | x :: a', y :: b' => (x =? y) && nl_eqb a' b' | _, _ => false end.
(* the equation holds only for keys 101..106 over hash 5 with signature 9 *)
Definition ex_agg (sel : list N) (h sg : N) : bool :=
  nl_eqb sel [101; 102; 103; 104; 105; 106] && (h =? 5) && (sg =? 9).
Definition ex_snap (mask sg h : N) : msnap :=
  mksnap snapshot_version true mask sg h (ex_epoch + one_day) 1.

Example C09_accepts_honest_certificate :
  verify_fresh ex_agg ex_node ex_chain (ex_snap 63 9 5) = Ok ([11; 12; 13; 14; 15; 16], true) /\
  consensus_threshold ex_node (ex_epoch + one_day) true = Ok 6 /\
  use_predictive ex_node (ex_epoch + one_day) = true.
Proof. vm_compute. repeat split; reflexivity. Qed.

(* below threshold, other mask, other hash, other signature: all refused *)
Example C09_rejects_forgeries :
  map (verify_fresh ex_agg ex_node ex_chain)
      [ex_snap 31 9 5; ex_snap 95 9 5; ex_snap 63 9 6; ex_snap 63 8 5; ex_snap 0 9 5; ex_snap 319 9 5]
  = repeat (Ok ([], false)) 6.
Proof. vm_compute. reflexivity. Qed.

(* the hypotheses of C09_memo hold for the example and the memo is really hit *)
Example C09_memo_applies :
  let qs := [(ex_node, ex_chain, ex_snap 63 9 5); (ex_node, ex_chain, ex_snap 31 9 5);
             (ex_node, ex_chain, ex_snap 63 9 5); (ex_node, ex_chain, ex_snap 31 9 5)] in
  Forall (query_ok (fun k => k - 90)) qs /\
  run_memo ex_agg qs [] = [Ok ([11; 12; 13; 14; 15; 16], true); Ok ([], false);
                           Ok ([11; 12; 13; 14; 15; 16], true); Ok ([], false)] /\
  (exists v, memo_get (memo_key 5 9 (consensus_keys ex_node ex_chain 1 (ex_epoch + one_day)) 6 63)
                      (match verify_finalization ex_agg ex_node ex_chain (ex_snap 63 9 5) [] with
                       | Ok (_, t) => t | _ => [] end) = Some v).
Proof.
  split; [|split].
  - assert (Q : forall s, query_ok (fun k => k - 90) (ex_node, ex_chain, s)).
    { intros s. apply C09_memo_hypothesis_from_records.
      - vm_compute. reflexivity.
      - repeat constructor.
      - intros info H. discriminate. }
    repeat constructor; apply Q.
  - vm_compute. reflexivity.
  - vm_compute. eexists. reflexivity.
Qed.
