(* C19 - a live round never spans a full round gap and holds no duplicates;
   closing it never fails.  Property theorems, proved from the lemmas of
   Proofs/LiveRound.v about the executable model Model/LiveRound.v of
   kernel/round.go (validateSnapshot, Gap, asFinal; uint64 arithmetic with
   explicit wrap), which harness/cmd/c19 runs against the real CacheRound.
   [sort_ts] / [sort] are ANY procedures returning a sorted permutation for the
   comparators of Gap / ComputeRoundHash; [H] is Blake3 as an abstract function. *)
From Coq Require Import List ZArith NArith Bool Permutation Sorted.
Require Import Mixin.Base.Res Mixin.Model.RoundHash Mixin.Model.LiveRound
               Mixin.Proofs.RoundHash Mixin.Proofs.LiveRound.
Import ListNotations.
Open Scope N_scope.

(* [round_ok] is the invariant of Proofs/LiveRound.v: distinct hashes and
   timestamps, disjoint transactions, one day, max - min < gap.
   For EVERY sequence of candidate snapshots (uint64 timestamps, nothing else
   assumed: any hashes, transactions, versions, round numbers), offered one by
   one to validateSnapshot(add = true) starting from the empty round, the live
   round satisfies the invariant - rejected candidates and calls that panic
   leave it unchanged up to slice order. *)
Theorem C19_invariant : forall sort_ts, sort_spec ts_lt sort_ts ->
  forall number cands, Forall (fun s => s_ts s < two64) cands ->
  round_ok (run sort_ts number cands).
Proof. exact run_invariant. Qed.
Print Assumptions C19_invariant.

(* ... after each step of the sequence *)
Theorem C19_invariant_every_step : forall sort_ts, sort_spec ts_lt sort_ts ->
  forall number cands k, Forall (fun s => s_ts s < two64) cands ->
  round_ok (run sort_ts number (firstn k cands)).
Proof.
  intros sort_ts HS number cands k HF. apply run_invariant; [exact HS|].
  rewrite <- (firstn_skipn k cands) in HF. apply Forall_app in HF. apply HF.
Qed.
Print Assumptions C19_invariant_every_step.

(* One call, from any round satisfying the invariant (accept, reject, validate
   only, panic): the invariant holds afterwards, and the slice is either the old
   content reordered or the old content plus the accepted candidate. *)
Theorem C19_step : forall sort_ts, sort_spec ts_lt sort_ts ->
  forall number l s add l' r, round_ok l -> s_ts s < two64 ->
  validate_snapshot sort_ts number l s add = (l', r) ->
  round_ok l' /\
  ((r = Ok tt /\ add = true /\ exists sl, Permutation sl l /\ l' = sl ++ [s]) \/
   ((r <> Ok tt \/ add = false) /\ Permutation l' l)).
Proof.
  intros sort_ts HS number l s add l' r Hok Hs Hv. split.
  - eapply validate_preserves; eassumption.
  - eapply validate_perm; eassumption.
Qed.
Print Assumptions C19_step.

(* Closing never fails: asFinal of a round satisfying the invariant does not
   reach ComputeRoundHash's panic, provided the timestamps are below 2^64 - gap
   (guard); it returns start = min, end = max with end < start + gap. *)
Theorem C19_close_total : forall (H : hin -> N) sort, sort_spec snap_lt sort ->
  forall node number l, round_ok l -> guarded l ->
  as_final H sort node number l <> Panic.
Proof. exact close_total. Qed.
Print Assumptions C19_close_total.

Theorem C19_close_value : forall (H : hin -> N) sort, sort_spec snap_lt sort ->
  forall node number l, round_ok l -> guarded l -> l <> [] ->
  exists start end_ h, as_final H sort node number l = Ok (Some (start, end_, h)) /\
    (forall s, In s l -> start <= s_ts s <= end_) /\ end_ < start + round_gap.
Proof.
  intros H sort HS node number l Hok Hg Hne. pose proof (close_total H sort HS node number l Hok Hg) as Hnp.
  destruct (as_final_bounds H sort HS node number l Hne) as (lo & hi & Hlo & Hhi & Hb & Hf). rewrite Hf in *.
  destruct (add64 (s_ts lo) round_gap <=? s_ts hi); [contradiction|].
  eexists _, _, _. split; [reflexivity|]. split; [exact Hb | apply (ok_span _ Hok); assumption].
Qed.
Print Assumptions C19_close_value.

(* Sequences of well-formed candidates (right round number, non-zero hash,
   encodable by the common snapshot encoding, timestamp below 2^64 - gap): the
   round stays guarded, so it always closes, and no call ever panics. *)
Theorem C19_sequence_closes : forall (H : hin -> N) sort_ts sort,
  sort_spec ts_lt sort_ts -> sort_spec snap_lt sort ->
  forall node number cands, Forall (wf_cand number) cands ->
  as_final H sort node number (run sort_ts number cands) <> Panic.
Proof.
  intros H sort_ts sort HT HS node number cands HF.
  destruct (run_wf sort_ts HT number cands HF) as [Hok [Hg _]].
  apply close_total; assumption.
Qed.
Print Assumptions C19_sequence_closes.

Theorem C19_no_panic : forall sort_ts, sort_spec ts_lt sort_ts ->
  forall number cands s add, Forall (wf_cand number) cands ->
  s_round s = number -> s_hash s <> 0 ->
  snd (validate_snapshot sort_ts number (run sort_ts number cands) s add) <> Panic.
Proof.
  intros sort_ts HT number cands s add HF Hr Hh.
  destruct (run_wf sort_ts HT number cands HF) as [Hok [Hg He]].
  apply validate_no_panic; assumption.
Qed.
Print Assumptions C19_no_panic.

(* The wrap region (all members at or above 2^64 - gap, where start + gap
   overflows): nothing further is ever accepted (error or panic), and closing
   panics. *)
Theorem C19_wrap_never_accepts : forall sort_ts, sort_spec ts_lt sort_ts ->
  forall number l s add, l <> [] -> in_wrap l ->
  snd (validate_snapshot sort_ts number l s add) <> Ok tt.
Proof.
  intros sort_ts HS number l s add Hne Hw. destruct (validate_snapshot sort_ts number l s add) as [l' r] eqn:Hv.
  cbn [snd]. intros ->. apply (validate_cases sort_ts HS) in Hv as [(_ & _ & sl & lo' & hi' & Hg & _)|[Hr _]]; [|exact (Hr eq_refl)].
  destruct (gap_of_nonempty sort_ts HS l Hne) as (lo & hi & Hlo & Hhi & _ & Hg').
  rewrite Hg', span_wrap in Hg; [discriminate | apply Hw, Hlo | apply Hw, Hhi].
Qed.
Print Assumptions C19_wrap_never_accepts.

Theorem C19_wrap_close_panics : forall (H : hin -> N) sort, sort_spec snap_lt sort ->
  forall node number l, l <> [] -> in_wrap l -> as_final H sort node number l = Panic.
Proof.
  intros H sort HS node number l Hne Hw.
  destruct (as_final_bounds H sort HS node number l Hne) as (lo & hi & Hlo & Hhi & _ & ->).
  rewrite span_wrap; [reflexivity | apply Hw, Hlo | apply Hw, Hhi].
Qed.
Print Assumptions C19_wrap_close_panics.

(* The first snapshot of the wrap region IS accepted into an empty round (no
   check applies to an empty round), so without the guard closing can fail. *)
Theorem C19_close_unguarded_refuted : exists s,
  validate_snapshot isort_ts 3 [] s true = ([s], Ok tt) /\
  round_ok [s] /\
  as_final (fun _ => 0) isort_snap 1 3 [s] = Panic.
Proof.
  exists (mk_snap 1 (two64 - 1) 2 3 [7]). split; [vm_compute; reflexivity|]. split.
  - apply (run_invariant isort_ts isort_ts_spec 3 [mk_snap 1 (two64 - 1) 2 3 [7]]).
    constructor; [vm_compute; reflexivity | constructor].
  - vm_compute. reflexivity.
Qed.
Print Assumptions C19_close_unguarded_refuted.

Example C19_ex_sorts : sort_spec ts_lt isort_ts /\ sort_spec snap_lt isort_snap.
Proof. split; [exact isort_ts_spec | exact isort_snap_spec]. Qed.

Definition ex_b : N := 1700000000000000000.
Definition ex_cands : list snap :=
  [ mk_snap 1 ex_b 2 3 [10]; mk_snap 2 (ex_b + round_gap - 1) 2 3 [11];
    mk_snap 3 (ex_b + round_gap) 2 3 [12];      (* reaches the gap: rejected *)
    mk_snap 1 (ex_b + 5) 2 3 [13];              (* repeated hash: rejected *)
    mk_snap 4 (ex_b + 6) 2 3 [11];              (* repeated transaction: rejected *)
    mk_snap 5 (ex_b - 1) 2 3 [14];              (* would span the gap backwards: rejected *)
    mk_snap 6 (ex_b + 7) 2 3 [15] ].
Example C19_ex_run :
  map s_hash (run isort_ts 3 ex_cands) = [1; 2; 6]
  /\ Forall (wf_cand 3) ex_cands
  /\ as_final (fun _ => 0) isort_snap 9 3 (run isort_ts 3 ex_cands) = Ok (Some (ex_b, ex_b + round_gap - 1, 0)).
Proof.
  split; [vm_compute; reflexivity|]. split; [|vm_compute; reflexivity].
  repeat constructor; vm_compute; try reflexivity; discriminate.
Qed.
