(* C28 - consensus operations form a serialized single-transaction chain.
   The property theorems; the lemmas they rest on are in Proofs/KernelSnap.v,
   about the executable model Model/KernelSnap.v (common.TransactionType /
   IsSnapshotBatchable, kernel validateKernelSnapshot /
   validateConsensusTransactionReferences, storage writeConsensusSnapshot),
   which harness/cmd/c28 runs against the real node and store. *)
From Coq Require Import List ZArith NArith Bool.
Require Import Mixin.Base.Res Mixin.Gen.Consts Mixin.Model.KernelSnap Mixin.Proofs.KernelSnap.
Import ListNotations.
Open Scope Z_scope.

(* A mint, membership or custodian operation is never a batchable class. *)
Theorem C28_consensus_class_not_batchable :
  forall ty, is_consensus_class ty = true -> is_batchable ty = false.
Proof.
  intros ty H. destruct (is_batchable ty) eqn:B; [|reflexivity]. unfold is_batchable in B.
  rewrite !orb_true_iff, !Z.eqb_eq in B. destruct B as [[[->| ->]| ->]| ->]; discriminate H.
Qed.
Print Assumptions C28_consensus_class_not_batchable.

(* An accepted snapshot with more than one transaction contains only batchable
   classes (for every network, finality flag and operation-validator outcome). *)
Theorem C28_batch : forall mainnet s found fin last tok,
  validate_kernel_snapshot mainnet s found fin last tok = Ok tt ->
  (1 < length (ks_txs s))%nat ->
  forall h t, In (h, t) found -> is_batchable (k_type t) = true.
Proof. exact c28_batch. Qed.
Print Assumptions C28_batch.

(* Every consensus-class transaction of an accepted snapshot is alone in it;
   it references the last recorded consensus operation and its snapshot is
   strictly later - or it is that last recorded operation itself (a second
   validation of an operation already recorded; recording it again is a no-op:
   the h' = h case of write_inv, Proofs/KernelSnap.v).  Outside the one historical exemption the code
   carries: finalized mainnet snapshots before the reference fork time. *)
Theorem C28_alone_and_linked : forall mainnet s found fin last tok h tx,
  validate_kernel_snapshot mainnet s found fin last tok = Ok tt ->
  (fin && mainnet && (ks_ts s <? Consts.KsConsensusReferenceForkAt)) = false ->
  In (h, tx) found -> is_consensus_class (k_type tx) = true ->
  (length (ks_txs s) <= 1)%nat /\
  (forall h0, ks_txs s = [h0] -> klookup h0 found = Some tx ->
     exists ltx, cs_txs last = [ltx] /\
       (ltx = k_hash tx \/ (hd_error (k_refs tx) = Some ltx /\ cs_ts last < ks_ts s))).
Proof.
  intros mainnet s found fin last tok h tx Hv Hex Hin Hc. split.
  - destruct (Nat.leb_spec (length (ks_txs s)) 1) as [L|L]; [exact L|].
    pose proof (C28_batch _ _ _ _ _ _ Hv L h tx Hin) as B.
    rewrite (C28_consensus_class_not_batchable _ Hc) in B. discriminate.
  - intros h0 Htx Hk. unfold validate_kernel_snapshot in Hv.
    rewrite Htx, Hex, Hk in Hv. cbn [length Z.of_nat] in Hv.
    change (1 <? Z.of_nat 1) with false in Hv. cbv iota zeta in Hv.
    destruct (negb (ks_self s) && _ && _); [discriminate|].
    destruct (validate_consensus_refs s tx last) as [[]| |] eqn:R; try discriminate Hv.
    exact (refs_linked _ _ _ R Hc).
Qed.
Print Assumptions C28_alone_and_linked.

Theorem C28_reference_check : forall s tx last,
  validate_consensus_refs s tx last = Ok tt ->
  is_consensus_class (k_type tx) = true ->
  exists ltx, cs_txs last = [ltx] /\
    (ltx = k_hash tx \/ (hd_error (k_refs tx) = Some ltx /\ cs_ts last < ks_ts s)).
Proof. exact refs_linked. Qed.
Print Assumptions C28_reference_check.

(* The same through validateSnapshotTransaction, whatever mix of members is
   already in persistent storage (validated and stored by an earlier round that
   was never finalized) or only cached: an accepted member list of a snapshot
   with more than one transaction is all batchable, and an accepted single
   consensus-class member is linked and strictly later. *)
Theorem C28_stored_members_batch : forall mainnet s fin last tok ms,
  snapshot_tx_rules mainnet s fin last tok [] ms = Ok tt ->
  (1 < length (ks_txs s))%nat ->
  forall m, In m ms -> is_batchable (k_type (m_tx m)) = true.
Proof. intros mainnet s fin last tok ms. exact (c28_members_batchable mainnet s fin last tok ms []). Qed.
Print Assumptions C28_stored_members_batch.

Theorem C28_stored_member_alone_and_linked : forall mainnet s fin last tok m,
  snapshot_tx_rules mainnet s fin last tok [] [m] = Ok tt ->
  (fin && mainnet && (ks_ts s <? Consts.KsConsensusReferenceForkAt)) = false ->
  ks_txs s = [m_hash m] -> is_consensus_class (k_type (m_tx m)) = true ->
  exists ltx, cs_txs last = [ltx] /\
    (ltx = k_hash (m_tx m) \/ (hd_error (k_refs (m_tx m)) = Some ltx /\ cs_ts last < ks_ts s)).
Proof.
  intros mainnet s fin last tok m H Hex Htx Hc. cbn [snapshot_tx_rules] in H.
  destruct (negb _ && _); [discriminate|].
  destruct (validate_kernel_snapshot _ _ _ _ _ _) as [[]| |] eqn:V; try discriminate.
  apply (proj2 (C28_alone_and_linked _ _ _ _ _ _ _ _ V Hex (or_introl eq_refl) Hc) _ Htx).
  cbn. rewrite N.eqb_refl. reflexivity.
Qed.
Print Assumptions C28_stored_member_alone_and_linked.

(* Over every sequence of attempted consensus writes (accepted or refused, in
   any order, with any references and timestamps), the recorded history stays
   a single chain: each record holds one transaction and points at the next
   record's transaction, which references it, with strictly increasing
   timestamps. *)
Theorem C28_single_chain : forall ops h,
  chain h -> Forall (fun o => co_genesis o = false) ops -> chain (fold_left apply_cop ops h).
Proof. exact c28_single_chain. Qed.
Print Assumptions C28_single_chain.

(* The executable chain check the correspondence runs on the records read back
   from a real store (after the kernel's own recording step) is sound. *)
Theorem C28_chain_check_sound : forall l, chainb l = true -> chain l.
Proof. exact chainb_sound. Qed.
Print Assumptions C28_chain_check_sound.

(* A write that changes the store links to the newest record and is later. *)
Theorem C28_write_extends : forall h o h' pre lst,
  chain h -> h = pre ++ [lst] -> co_genesis o = false ->
  write_consensus_snapshot h o = Ok h' -> h' <> h ->
  exists tl, cr_txs lst = [tl] /\ hd_error (co_refs o) = Some tl /\ cr_ts lst < co_ts o /\ co_txs o = [co_tx o].
Proof.
  intros h o h' pre lst H -> Hg Hw Hne.
  destruct (write_on_chain _ _ _ H Hg Hw) as [->|(pre' & lst' & tl & E & Htl & Hr & Hlt & Etx & _)];
    [contradiction|].
  apply app_inj_tail in E. destruct E as [_ ->]. exists tl. auto.
Qed.
Print Assumptions C28_write_extends.

Definition ex_mint (h : N) (refs : list N) : ktx :=
  {| k_hash := h; k_ins := [IKMint]; k_outs := [OScript]; k_refs := refs; k_mint_batch := 2000 |}.
Definition ex_script (h : N) : ktx :=
  {| k_hash := h; k_ins := [IKUtxo]; k_outs := [OScript]; k_refs := []; k_mint_batch := 0 |}.
Definition ex_last := {| cs_txs := [7%N]; cs_ts := 100 |}.

(* an accepted batch of two batchable transactions *)
Example ex_batch_accepted :
  validate_kernel_snapshot false {| ks_self := true; ks_round := 1; ks_ts := 5; ks_txs := [1%N; 2%N] |}
    [(1%N, ex_script 1); (2%N, ex_script 2)] false ex_last false = Ok tt.
Proof. vm_compute. reflexivity. Qed.

(* a mint next to a script transaction is refused *)
Example ex_batch_with_mint_refused :
  validate_kernel_snapshot false {| ks_self := true; ks_round := 1; ks_ts := 200; ks_txs := [1%N; 2%N] |}
    [(1%N, ex_script 1); (2%N, ex_mint 2 [7%N])] false ex_last true = Err.
Proof. vm_compute. reflexivity. Qed.

(* an accepted mint, alone, linked, later; refused when stale or unlinked *)
Example ex_mint_accepted :
  validate_kernel_snapshot false {| ks_self := true; ks_round := 1; ks_ts := 101; ks_txs := [2%N] |}
    [(2%N, ex_mint 2 [7%N])] false ex_last true = Ok tt
  /\ is_consensus_class (k_type (ex_mint 2 [7%N])) = true.
Proof. vm_compute. split; reflexivity. Qed.
Example ex_mint_same_timestamp_refused :
  validate_kernel_snapshot false {| ks_self := true; ks_round := 1; ks_ts := 100; ks_txs := [2%N] |}
    [(2%N, ex_mint 2 [7%N])] false ex_last true = Err.
Proof. vm_compute. reflexivity. Qed.
Example ex_mint_older_reference_refused :
  validate_kernel_snapshot false {| ks_self := true; ks_round := 1; ks_ts := 101; ks_txs := [2%N] |}
    [(2%N, ex_mint 2 [6%N])] false ex_last true = Err.
Proof. vm_compute. reflexivity. Qed.

(* a stored mint re-proposed next to a cached script transaction is refused, in both orders *)
Example ex_stored_mint_in_batch_refused :
  let mint := {| m_hash := 2%N; m_tx := ex_mint 2 [7%N]; m_stored := true; m_valid := false |} in
  let scr := {| m_hash := 1%N; m_tx := ex_script 1; m_stored := false; m_valid := true |} in
  let s := {| ks_self := true; ks_round := 1; ks_ts := 200; ks_txs := [1%N; 2%N] |} in
  snapshot_tx_rules false s false ex_last true [] [mint; scr] = Err
  /\ snapshot_tx_rules false s false ex_last true [] [scr; mint] = Err.
Proof. vm_compute. split; reflexivity. Qed.

(* a chain that grows: genesis record, then two linked operations; a stale
   write in between is refused and leaves the chain as it was *)
Definition ex_genesis_rec :=
  {| cr_ts := 1; cr_snap := 50%N; cr_txs := [7%N]; cr_ref := None; cr_next := None |}.
Definition ex_op (ts : Z) (snap tx ref : N) : cop :=
  {| co_ts := ts; co_snap := snap; co_txs := [tx]; co_tx := tx; co_refs := [ref];
     co_mint := true; co_out0 := Some OScript; co_genesis := false |}.
Example ex_chain_start : chain [ex_genesis_rec].
Proof. eapply chain_one; reflexivity. Qed.
Example ex_chain_grows :
  fold_left apply_cop [ex_op 5 51 8 7; ex_op 5 52 9 8; ex_op 9 53 9 8] [ex_genesis_rec]
  = [ {| cr_ts := 1; cr_snap := 50%N; cr_txs := [7%N]; cr_ref := None; cr_next := Some 8%N |};
      {| cr_ts := 5; cr_snap := 51%N; cr_txs := [8%N]; cr_ref := Some 7%N; cr_next := Some 9%N |};
      {| cr_ts := 9; cr_snap := 53%N; cr_txs := [9%N]; cr_ref := Some 8%N; cr_next := None |} ].
Proof. vm_compute. reflexivity. Qed.
