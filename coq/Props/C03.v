(* C03 - an output, deposit or mint slot is locked by at most one transaction.
   Property theorems, then non-vacuity examples, over the executable state machine Model/Locks.v
   (every storage call is one atomic step; every interleaving of atomic calls is
   a sequence, so induction over op lists covers all schedules).  The harness
   harness/cmd/c03 runs the same op lists on a real Badger store.
   Partial: that a call IS atomic (store mutex + one Badger update) is runtime
   behaviour, checked by the concurrent part of the harness only. *)
From Coq Require Import List ZArith NArith Bool.
Require Import Mixin.Base.Res Mixin.Gen.Consts Mixin.Model.GhostKeys Mixin.Model.Locks
               Mixin.Proofs.Lists Mixin.Proofs.GhostKeys Mixin.Proofs.Locks.
Import ListNotations.
Open Scope N_scope.

(* After ANY sequence of calls from any number of callers: every output slot,
   deposit key and mint batch has at most one record, hence at most one holder;
   and every output slot belongs to a finalized transaction. *)
Theorem C03_slot_invariant : forall os, let s := run init os in
  (forall sl h1 h2, In (sl, h1) (s_utxo s) -> In (sl, h2) (s_utxo s) -> h1 = h2) /\
  (forall k h1 h2, In (k, h1) (s_dep s) -> In (k, h2) (s_dep s) -> h1 = h2) /\
  (forall b r1 r2, In (b, r1) (s_mint s) -> In (b, r2) (s_mint s) -> r1 = r2) /\
  (forall sl, utxo_lock s sl <> None -> is_final s (fst sl) = true).
Proof.
  intros os s. pose proof (wf_run os init wf_init) as Hw.
  split; [|split; [|split; [|exact (wf_final _ Hw)]]]; intros k v1 v2; apply nodup_functional;
    [exact (wf_utxo _ Hw)|exact (wf_dep _ Hw)|exact (wf_mint _ Hw)].
Qed.
Print Assumptions C03_slot_invariant.

(* A call that does not succeed leaves the WHOLE state unchanged (multi-input
   calls are all-or-nothing). *)
Theorem C03_failed_call_changes_nothing : forall s o,
  snd (step s o) <> Ok tt -> fst (step s o) = s.
Proof.
  intros s o. unfold step. destruct (exec s o); cbn; [intro H; elim H|..]; reflexivity.
Qed.
Print Assumptions C03_failed_call_changes_nothing.

(* Ordinary admission (fork = false) against a slot held by a different
   transaction fails and changes nothing - whichever input of the call it is.
   For output slots the outcome is "not Ok" rather than Err: an earlier input of
   the same call may panic on the index bound before the conflict is met. *)
Theorem C03_conflict_rejected :
  (forall s ins tx sl l, In sl ins -> utxo_lock s sl = Some l -> l <> 0 -> l <> tx ->
     fst (step s (LockUTXOs ins tx false)) = s /\ snd (step s (LockUTXOs ins tx false)) <> Ok tt) /\
  (forall s d tx l, dep_lock s d = Some l -> l <> tx -> step s (LockDeposit d tx false) = (s, Err)) /\
  (forall s b a tx l a0, mint_lock s b = Some (l, a0) -> (l <> tx \/ a0 <> a) ->
     step s (LockMint b a tx false) = (s, Err)).
Proof.
  split; [|split].
  - intros s ins tx sl l Hin El H0 Hne. apply step_not_ok.
    exact (lock_utxos_conflict ins s tx sl l Hin El H0 Hne).
  - intros s d tx l El Hne. apply step_err. exact (lock_deposit_conflict s d tx l El Hne).
  - intros s b a tx l a0 El Hne. apply step_err. exact (lock_mint_conflict s b a tx l a0 El Hne).
Qed.
Print Assumptions C03_conflict_rejected.

(* Re-locking by the holder itself is the identity on the state, fork or not. *)
Theorem C03_relock_idempotent :
  (forall s ins tx f,
     (forall sl, In sl ins -> utxo_lock s sl = Some tx /\ snd sl <= max_utxo_index) ->
     step s (LockUTXOs ins tx f) = (s, Ok tt)) /\
  (forall s d tx f, dep_lock s d = Some tx -> step s (LockDeposit d tx f) = (s, Ok tt)) /\
  (forall s b a tx f, mint_lock s b = Some (tx, a) -> step s (LockMint b a tx f) = (s, Ok tt)).
Proof.
  split; [|split]; intros; apply step_ok; cbn [exec].
  - apply lock_utxos_relock. assumption.
  - apply lock_deposit_relock. assumption.
  - apply lock_mint_relock. assumption.
Qed.
Print Assumptions C03_relock_idempotent.

(* One successful call from a reachable state, seen from any transaction h:
   either h still holds every slot it held, or the call was a fork call, h has
   no finalization record, and the body of h is gone in the resulting state
   (the same atomic step). *)
Theorem C03_takeover_removes_body : forall os o s' h, h <> 0 ->
  step (run init os) o = (s', Ok tt) ->
  holds (run init os) h s' \/
  (op_fork o = true /\ is_final (run init os) h = false /\ has_body s' h = false).
Proof.
  intros os o s' h Hh H.
  apply (exec_ok _ _ _ (step_ok_inv _ _ _ H)); [exact (wf_run os init wf_init)|exact Hh].
Qed.
Print Assumptions C03_takeover_removes_body.

(* Once a transaction has a finalization record, no later sequence of calls
   (fork or not, from anybody) takes any of its slots or its record away. *)
Theorem C03_finalized_holder_never_displaced : forall os1 os2 h, h <> 0 ->
  is_final (run init os1) h = true ->
  is_final (run init (os1 ++ os2)) h = true /\ holds (run init os1) h (run init (os1 ++ os2)).
Proof.
  intros os1 os2 h Hh Hf. rewrite run_app.
  exact (run_final_keeps os2 (run init os1) h (wf_run os1 init wf_init) Hh Hf).
Qed.
Print Assumptions C03_finalized_holder_never_displaced.

(* The text "%s:%s:%d" UniqueKey hashes determines the deposit: the chain
   prints with fixed width, the index text has no ':' - whatever bytes (also
   ':') the transaction id contains. *)
Theorem C03_unique_key_injective : forall d1 d2,
  d_chain d1 < 2 ^ 256 -> d_chain d2 < 2 ^ 256 -> render d1 = render d2 -> d1 = d2.
Proof.
  intros [c1 t1 i1] [c2 t2 i2]. unfold render. cbn [d_chain d_tx d_index]. intros H1 H2 H.
  apply app_inj_len in H as [Hc Hr]; [|rewrite !hex_fixed_length; reflexivity].
  injection Hr as Hr. apply split_last_sep in Hr as [-> Hi]; [|apply uint_chars_no_colon..].
  apply dec_chars_inj in Hi as ->. apply (hex_fixed_inj 64) in Hc as ->; auto.
Qed.
Print Assumptions C03_unique_key_injective.

Definition ex_g : txd := {| t_hash := 11; t_ins := InGenesis; t_outs := [[1]; [2]] |}.
Definition ex_a : txd := {| t_hash := 21; t_ins := InUtxo [(11, 0); (11, 1)]; t_outs := [[3]] |}.
Definition ex_b : txd := {| t_hash := 22; t_ins := InUtxo [(11, 1)]; t_outs := [[4]] |}.
Definition ex_seed := [WriteTx ex_g; Finalize 11; LockInputs ex_a false; WriteTx ex_a].

Example C03_ex_conflict :
  let s := run init ex_seed in
  utxo_lock s (11, 1) = Some 21 /\ has_body s 21 = true /\
  step s (LockInputs ex_b false) = (s, Err) /\
  step s (LockInputs ex_a false) = (s, Ok tt).
Proof. vm_compute. repeat split. Qed.

Example C03_ex_takeover :
  let s := run init ex_seed in
  let s' := fst (step s (LockInputs ex_b true)) in
  snd (step s (LockInputs ex_b true)) = Ok tt /\
  utxo_lock s' (11, 1) = Some 22 /\ has_body s' 21 = false /\ utxo_lock s' (11, 0) = Some 21.
Proof. vm_compute. repeat split. Qed.

Example C03_ex_finalized :
  let s := run init (ex_seed ++ [Finalize 21]) in
  is_final s 21 = true /\ step s (LockInputs ex_b true) = (s, Err).
Proof. vm_compute. repeat split. Qed.

(* the index bound written in the model is the repository's input index limit *)
Example C03_ex_index_limit : Z.of_N max_utxo_index = Consts.LockInputIndexLimit.
Proof. reflexivity. Qed.

Example C03_ex_render :
  render {| d_chain := 255; d_tx := [97; 58; 49]; d_index := 20 |} =
  repeat 48 62 ++ [102; 102; 58; 97; 58; 49; 58; 50; 48].
Proof. vm_compute. reflexivity. Qed.
