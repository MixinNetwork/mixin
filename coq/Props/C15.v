(* C15 — finalizing a snapshot is atomic and idempotent.
   Model: Mixin.Model.Finalize (write_snapshot = the single Badger transaction of
   storage.WriteSnapshot over the record families of the snapshot database). *)
From Coq Require Import List ZArith NArith Bool.
Require Import Mixin.Base.Res Mixin.Gen.Consts Mixin.Model.Fixed Mixin.Model.Finalize Mixin.Proofs.Finalize.
Import ListNotations.
Open Scope Z_scope.

(* All or nothing: whenever write_snapshot does not succeed (a member returns an
   error or panics, at any position of the batch, or a snapshot-level assertion
   fails) the resulting state is the input state.  For every state and batch. *)
Theorem C15_all_or_nothing : forall s sn signers s' r,
  write_snapshot s sn signers = (s', r) -> r <> Ok tt -> s' = s.
Proof. exact write_snapshot_all_or_nothing. Qed.
Print Assumptions C15_all_or_nothing.

(* The same for every store call a history is made of. *)
Theorem C15_every_call_all_or_nothing : forall s o s' r,
  step s o = (s', r) -> r <> Ok tt -> s' = s.
Proof. exact step_all_or_nothing. Qed.
Print Assumptions C15_every_call_all_or_nothing.

(* Effect set.  On success the difference between the states is exactly:
   - a finalization record naming this snapshot for each member that had none
     (existing records are kept);
   - the per-node uniqueness record of each member;
   - the snapshot record, the topology entry with its reverse index, the work record;
   - output records only under newly finalized members (every other output
     record, including its lock holder, is untouched);
   and transaction bodies and rounds do not change.  The output-derived families
   (ghost keys, asset info, asset totals, node, custodian and withdrawal records)
   change only through newly finalized members: without one they are all equal.
   The TRANSACTION family is content addressed (wf_txs, property C06). *)
Theorem C15_effect_set : forall s sn signers s', wf_txs s ->
  write_snapshot s sn signers = (s', Ok tt) ->
  s_txs s' = s_txs s /\ s_round s' = s_round s /\
  (forall h, lookup eq1 (s_fin s') h =
     match lookup eq1 (s_fin s) h with
     | Some v => Some v
     | None => if mem_N h (sn_txs sn) then Some (sn_hash sn) else None
     end) /\
  (forall k, mem eq2 (s_uniq s') k =
     mem eq2 (s_uniq s) k || (mem_N (fst k) (sn_txs sn) && (snd k =? sn_node sn)%N)) /\
  (forall k, lookup eq3 (s_snap s') k =
     if eq3 (snap_key sn) k then Some (sn_hash sn) else lookup eq3 (s_snap s) k) /\
  (forall k, lookup eq1 (s_topo s') k =
     if eq1 (sn_topo sn) k then Some (snap_key sn) else lookup eq1 (s_topo s) k) /\
  (forall k, lookup eq1 (s_snaptopo s') k =
     if eq1 (sn_hash sn) k then Some (sn_topo sn) else lookup eq1 (s_snaptopo s) k) /\
  (forall k, lookup eq3 (s_work s') k =
     if eq3 (sn_node sn, sn_round sn, sn_ts sn) k then Some (sn_whash sn, signers)
     else lookup eq3 (s_work s) k) /\
  (forall h i, mem_N h (sn_txs sn) && negb (finalized s h) = false ->
     lookup eq2 (s_utxo s') (h, i) = lookup eq2 (s_utxo s) (h, i)) /\
  ((forall h, In h (sn_txs sn) -> finalized s h = true) ->
     s_fin s' = s_fin s /\ s_utxo s' = s_utxo s /\ s_ghost s' = s_ghost s /\
     s_ainfo s' = s_ainfo s /\ s_total s' = s_total s /\ s_nodes s' = s_nodes s /\
     s_cust s' = s_cust s /\ s_wdr s' = s_wdr s).
Proof.
  intros s sn signers s' Hwf H. destruct (write_snapshot_ok _ _ _ _ H) as (s2 & Hc & ->).
  destruct (write_snapshot_core_ok _ _ _ Hc) as (s1 & Hm & ->).
  destruct (finalize_members_effect _ _ _ _ Hwf Hm) as [Et Es Eo Ep Ew Er Hfin Huniq Hutxo Hidem].
  cbn. repeat split; auto; try apply Hidem; auto; intros k.
  - (* s_snap *) rewrite (lookup_set eq3_ok), Es. reflexivity.
  - (* s_topo *) rewrite (lookup_set eq1_ok), Eo. reflexivity.
  - (* s_snaptopo *) rewrite (lookup_set eq1_ok), Ep. reflexivity.
  - (* s_work *) rewrite (lookup_set eq3_ok), Ew. reflexivity.
Qed.
Print Assumptions C15_effect_set.

(* What a newly finalized member writes, and only that: its finalization record,
   its spendable outputs as unlocked output records, and the new asset total
   (old total + deposit / mint / genesis amount, or - withdrawal submissions),
   which never exceeds the capacity. *)
Theorem C15_member_effect : forall s t sn s', finalized s (t_hash t) = false ->
  finalize_tx s t sn = Ok s' ->
  s_txs s' = s_txs s /\ s_uniq s' = s_uniq s /\ s_snap s' = s_snap s /\ s_topo s' = s_topo s /\
  s_snaptopo s' = s_snaptopo s /\ s_work s' = s_work s /\ s_round s' = s_round s /\
  s_fin s' = set eq1 (s_fin s) (t_hash t) (sn_hash sn) /\
  (exists us, unspent_outputs t = Ok us /\ s_utxo s' = put_utxos t us (s_utxo s)) /\
  (exists nt, new_total t (total_of s (t_asset t)) = Ok nt /\
     match nt with
     | None => s_total s' = s_total s
     | Some v => s_total s' = set eq1 (s_total s) (t_asset t) v /\ v <= capacity (t_asset t)
     end).
Proof.
  intros s t sn s' Hf H. destruct (finalize_tx_fresh s t sn s' Hf H). repeat split; auto.
Qed.
Print Assumptions C15_member_effect.

(* First finalization wins: finalizing an already finalized transaction is the
   identity on the whole state (its record, outputs and totals are not applied
   again) ... *)
Theorem C15_first_finalization_wins_member : forall s t sn,
  finalized s (t_hash t) = true -> finalize_tx s t sn = Ok s.
Proof. exact finalize_tx_done. Qed.
Print Assumptions C15_first_finalization_wins_member.

(* ... and through a whole snapshot: a transaction finalized before keeps its
   first record and every output record under it is unchanged; if all members
   were finalized before, no finalization, output, ghost, asset, node, custodian
   or withdrawal record changes at all (idempotence). *)
Theorem C15_first_finalization_wins : forall s sn signers s', wf_txs s ->
  write_snapshot s sn signers = (s', Ok tt) ->
  (forall h v, lookup eq1 (s_fin s) h = Some v ->
     lookup eq1 (s_fin s') h = Some v /\
     (forall i, lookup eq2 (s_utxo s') (h, i) = lookup eq2 (s_utxo s) (h, i))) /\
  ((forall h, In h (sn_txs sn) -> finalized s h = true) ->
     s_fin s' = s_fin s /\ s_utxo s' = s_utxo s /\ s_ghost s' = s_ghost s /\
     s_ainfo s' = s_ainfo s /\ s_total s' = s_total s /\ s_nodes s' = s_nodes s /\
     s_cust s' = s_cust s /\ s_wdr s' = s_wdr s).
Proof.
  intros s sn signers s' Hwf H.
  destruct (C15_effect_set s sn signers s' Hwf H) as (_ & _ & Hfin & _ & _ & _ & _ & _ & Hutxo & Hidem).
  split; [|exact Hidem]. intros h v Hv. split; [rewrite Hfin, Hv; reflexivity|].
  intros i. apply Hutxo. unfold finalized, mem. rewrite Hv. apply andb_false_r.
Qed.
Print Assumptions C15_first_finalization_wins.

Definition ex_out (ty amt : Z) (k : N) : output := {| o_type := ty; o_amount := amt; o_keys := [k] |}.
Definition ex_dep (h : N) (amt : Z) (k : N) : tx :=
  {| t_hash := h; t_asset := Consts.Fin_Asset_BTC; t_inputs := [IDeposit 7 8 amt];
     t_outputs := [ex_out ot_script amt k]; t_extra := []; t_refs := []; t_cust := None |}.
Definition ex_snap (h node : N) (txs : list N) (topo : N) : snapshot :=
  {| sn_hash := h; sn_whash := h; sn_node := node; sn_round := 1; sn_ts := 1000 + topo;
     sn_refs := (5, 6)%N; sn_txs := txs; sn_topo := topo |}.

Definition ex_state : state :=
  run empty_state [OpRound 50 1 (5, 6)%N; OpRound 51 1 (5, 6)%N;
                   OpWriteTx (ex_dep 101 (100 * 10 ^ 8) 201); OpWriteTx (ex_dep 102 (200 * 10 ^ 8) 202);
                   OpWriteTx (ex_dep 103 (2400 * 10 ^ 8) 203)].

(* a two-member batch succeeds and is a real change *)
Example C15_ex_success :
  snd (write_snapshot ex_state (ex_snap 900 50 [101; 102]%N 1) [50%N]) = Ok tt /\
  total_of (fst (write_snapshot ex_state (ex_snap 900 50 [101; 102]%N 1) [50%N])) Consts.Fin_Asset_BTC = 300 * 10 ^ 8 /\
  wf_txs ex_state.
Proof.
  split; [vm_compute; reflexivity|split; [vm_compute; reflexivity|]].
  apply run_wf. apply empty_wf.
Qed.

(* a failing member in the middle (capacity overflow: 100+200+2400 > 2500): panic, nothing written *)
Example C15_ex_failure :
  write_snapshot ex_state (ex_snap 901 50 [101; 103; 102]%N 1) [] = (ex_state, Panic).
Proof. vm_compute. reflexivity. Qed.

(* a missing body at the last position *)
Example C15_ex_missing :
  write_snapshot ex_state (ex_snap 902 50 [101; 102; 999]%N 1) [] = (ex_state, Panic).
Proof. vm_compute. reflexivity. Qed.

(* overlap: node 51 presents 101 again together with 102: 101 keeps its first record and is not counted twice *)
Example C15_ex_overlap :
  let s1 := fst (write_snapshot ex_state (ex_snap 900 50 [101]%N 1) []) in
  let s2 := fst (write_snapshot s1 (ex_snap 903 51 [101; 102]%N 2) []) in
  lookup eq1 (s_fin s2) 101%N = Some 900%N /\ lookup eq1 (s_fin s2) 102%N = Some 903%N /\
  total_of s2 Consts.Fin_Asset_BTC = 300 * 10 ^ 8 /\
  finalize_tx s2 (ex_dep 101 (100 * 10 ^ 8) 201) (ex_snap 904 51 [101]%N 3) = Ok s2.
Proof. vm_compute. repeat split; reflexivity. Qed.
