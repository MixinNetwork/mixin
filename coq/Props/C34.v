(* C34 - custodian updates are accepted only in canonical, fully signed form;
   encoding an update and parsing it back returns the same entries.
   Property theorems only, proved from the lemmas of Proofs/Custodian.v
   about the executable model Model/Custodian.v, which the correspondence
   harness (harness/cmd/c34) runs against common/custodian.go.

   [verify key msg sig] stands for key.Verify(Blake3Hash(msg), sig): the
   theorems hold for every such function (no assumption on the scheme). *)
From Coq Require Import List ZArith NArith Bool Arith Sorted Permutation.
Require Import Mixin.Base.Res Mixin.Gen.Consts Mixin.Model.Fixed Mixin.Model.Custodian Mixin.Proofs.Custodian.
Import ListNotations.
Local Open Scope nat_scope.

(* Acceptance by validateCustodianUpdateNodes, for EVERY extra, previous
   custodian state and transaction: the extra is exactly the encoding of its
   entries; there are at least 7; they are strictly sorted by custodian spend
   key in bytes.Compare order; all custodian and payee spend keys are pairwise
   distinct; every entry has the 353-byte layout and carries valid payee and
   custodian signatures over its first 161 bytes; the approval signature
   verifies under the CURRENT custodian's key over everything but itself; and
   the amount is at least 100 per new plus 1 per changed entry, new/changed
   being judged by the custodian address against the previous state. *)
Theorem C34_accept_implies : forall verify tx extra store,
  validate_update verify tx extra store = Ok tt ->
  exists out u prev,
    t_outputs tx = [out] /\ store = StoreSome prev /\ extra = encode_update u /\
    min_count <= length (u_nodes u) /\
    StronglySorted nlt (u_nodes u) /\
    NoDup (spend_keys (u_nodes u)) /\
    Forall (fun n => node_shape n /\ node_signed verify n) (u_nodes u) /\
    verify (fst (p_cust prev))
           (fst (u_cust u) ++ snd (u_cust u) ++ concat (map cn_extra (u_nodes u))) (u_sig u) = true /\
    (new_price * Z.of_nat (length (filter (is_new (p_nodes prev)) (u_nodes u)))
     + update_price * Z.of_nat (length (filter (fun n => negb (is_new (p_nodes prev) n) && is_changed (p_nodes prev) n)
                                                (u_nodes u)))
     <= o_amount out)%Z.
Proof.
  intros verify tx extra store H.
  apply validate_update_accept in H as (out & u & prev & _ & _ & V3 & _ & _ & _ & V7 & V8 & W & A & D & P & _).
  pose proof W as (_ & _ & _ & Lm & F & Fr & S).
  assert (F2 : Forall (fun n => node_shape n /\ node_signed verify n) (u_nodes u)).
  { eapply Forall_impl; [|exact F]. intros n [Sh Sg]. split; [exact Sh|apply Sg; reflexivity]. }
  exists out, u, prev. repeat (split; [solve [auto]|]). split.
  - apply (fresh_spend_keys_nodup [] _ Fr). eapply Forall_impl; [|exact F2]. intros n [_ [Hn _]]. exact Hn.
  - split; [exact F2|]. split; [exact A|]. rewrite <- (price_as_count _ _ D). exact P.
Qed.
Print Assumptions C34_accept_implies.

(* The prices are the repository's constants: 100 and 1 whole units. *)
Theorem C34_prices : new_price = (100 * 10 ^ 8)%Z /\ update_price = (1 * 10 ^ 8)%Z /\ min_count = 7 /\ node_size = 353.
Proof. exact (conj new_price_val (conj update_price_val (conj min_count_val node_size_val))). Qed.
Print Assumptions C34_prices.

(* Acceptance is EXACTLY the rule (both directions), including the
   transaction shape and the same-custodian rule. *)
Theorem C34_accept_iff : forall verify tx extra store,
  validate_update verify tx extra store = Ok tt <-> accepted verify tx extra store.
Proof. exact validate_update_accept. Qed.
Print Assumptions C34_accept_iff.

(* The parser accepts exactly the canonical encodings of well-formed entry
   lists: in particular parse (encode u) = Ok u, and an accepted byte string
   is the encoding of what was parsed (nothing is lost or ignored). *)
Theorem C34_parse_iff : forall verify genesis extra u,
  parse_update verify genesis extra = Ok u <-> extra = encode_update u /\ update_wf verify genesis u.
Proof. exact parse_update_spec. Qed.
Print Assumptions C34_parse_iff.

Theorem C34_roundtrip : forall verify genesis u,
  update_wf verify genesis u -> parse_update verify genesis (encode_update u) = Ok u.
Proof. intros verify g u W. apply parse_update_spec. split; [reflexivity|exact W]. Qed.
Print Assumptions C34_roundtrip.

Theorem C34_roundtrip_canonical : forall verify genesis extra u,
  parse_update verify genesis extra = Ok u -> encode_update u = extra.
Proof. intros verify g extra u H. apply parse_update_spec in H as [E _]. symmetry. exact E. Qed.
Print Assumptions C34_roundtrip_canonical.

(* One entry: parseCustodianNode accepts exactly the 353-byte entries with the
   update action whose fields sit at the documented offsets and (outside
   genesis) whose payee and custodian signatures verify. *)
Theorem C34_entry_iff : forall verify genesis e n,
  parse_node verify genesis e = Ok n <-> cn_extra n = e /\ node_ok verify genesis n.
Proof. exact parse_node_spec. Qed.
Print Assumptions C34_entry_iff.

(* What EncodeCustodianNode lays out parses back to the same entry: for fields
   of the right sizes, distinct payee and custodian keys, and payee / custodian
   signatures over the 161-byte signed part. *)
Theorem C34_roundtrip_entry : forall verify f,
  fields_wf f ->
  fst (f_payee f) <> fst (f_cust f) ->
  verify (fst (f_payee f)) (signed_part f) (f_payee_sig f) = true ->
  verify (fst (f_cust f)) (signed_part f) (f_cust_sig f) = true ->
  parse_node verify false (encode_node f) = Ok (cnode_of_fields f).
Proof. exact encode_node_parses. Qed.
Print Assumptions C34_roundtrip_entry.

(* Entries that are not strictly sorted by custodian key - out of order or
   with a repeated key - are rejected, whatever the signatures, in both modes. *)
Theorem C34_reject_unsorted_or_duplicate : forall verify genesis u,
  update_shaped u ->
  (~ StronglySorted nlt (u_nodes u) \/ ~ NoDup (map cn_cust_spend (u_nodes u))) ->
  parse_update verify genesis (encode_update u) = Err.
Proof.
  intros verify g u Sh [H|H]; apply parse_rejects_unsorted; auto. intro S. apply H, sorted_strict_nodup, S.
Qed.
Print Assumptions C34_reject_unsorted_or_duplicate.

(* The model sorts by insertion; Go uses the unstable sort.Slice.  With the
   distinct keys the uniqueness filter guarantees, EVERY correct sort returns
   the same list, so the choice of algorithm cannot matter. *)
Theorem C34_sort_model_adequate : forall l l',
  Permutation l' l -> StronglySorted nle l' -> NoDup (map cn_cust_spend l) -> l' = sort_nodes l.
Proof.
  intros l l' P S D.
  assert (Dm : forall m, Permutation m l -> NoDup (map cn_cust_spend m)).
  { intros m Pm. eapply Permutation_NoDup; [|exact D]. apply Permutation_map. symmetry. exact Pm. }
  apply sorted_perm_unique.
  - apply sorted_le_strict; auto.
  - apply sorted_le_strict; [apply sort_sorted|apply Dm, sort_perm].
  - rewrite P. symmetry. apply sort_perm.
Qed.
Print Assumptions C34_sort_model_adequate.

(* Parsing never panics, on any input.  (Validation does, in the model, when the
   store hands back a previous state with a repeated custodian address; no
   theorem of this file says so.) *)
Theorem C34_parse_total : forall verify genesis extra, parse_update verify genesis extra <> Panic.
Proof. exact parse_update_no_panic. Qed.
Print Assumptions C34_parse_total.

(* a concrete 7-entry update *)
Definition ex_key (x : N) : bytes := x :: repeat 0%N 31.
Definition ex_fields (i : N) : node_fields :=
  {| f_cust := (ex_key i, ex_key (100 + i)); f_payee := (ex_key (50 + i), ex_key (150 + i));
     f_node_id := repeat 7%N 32; f_signer_sig := repeat 1%N 64;
     f_payee_sig := repeat 2%N 64; f_cust_sig := repeat 3%N 64 |}.
Definition ex_update (order : list N) : update :=
  {| u_cust := (ex_key 200, ex_key 201);
     u_nodes := map (fun i => cnode_of_fields (ex_fields i)) order;
     u_sig := repeat 9%N 64 |}.
Definition ex_good := ex_update [1; 2; 3; 4; 5; 6; 7]%N.
Definition yes (k m s : bytes) := true.
(* only signatures made of 2s (payee) or 3s (custodian) or 9s (approval by key 250) verify *)
Definition ex_verify (k m s : bytes) : bool :=
  match s with
  | 9%N :: _ => bytes_eqb k (ex_key 250)
  | 2%N :: _ => (50 <? hd 0 k)%N
  | 3%N :: _ => (hd 0 k <? 50)%N
  | _ => false
  end.
Definition ex_tx (amount : Z) : txshape :=
  {| t_version := Consts.CusTxVersionHashSignature; t_asset := Consts.CusXINAssetId;
     t_outputs := [ {| o_type := Consts.CusOutputTypeCustodianUpdateNodes; o_nkeys := 1;
                       o_script := storage_script; o_amount := amount |} ] |}.
Definition ex_prev : prev_state :=
  {| p_cust := (ex_key 250, ex_key 251);
     p_nodes := [ ((ex_key 1, ex_key 101), (ex_key 51, ex_key 151));      (* unchanged *)
                  ((ex_key 2, ex_key 102), (ex_key 52, ex_key 99)) ] |}.  (* payee changed *)

Example ex_parse_roundtrip : parse_update ex_verify false (encode_update ex_good) = Ok ex_good.
Proof. vm_compute. reflexivity. Qed.

Example ex_wf : update_wf ex_verify false ex_good.
Proof. apply (proj1 (C34_parse_iff ex_verify false (encode_update ex_good) ex_good)). exact ex_parse_roundtrip. Qed.

(* 5 new entries and 1 changed: price 501 units; accepted at the price, refused one unit below *)
Example ex_accept_at_price :
  validate_update ex_verify (ex_tx (501 * 10 ^ 8)) (encode_update ex_good) (StoreSome ex_prev) = Ok tt.
Proof. vm_compute. reflexivity. Qed.
Example ex_reject_below_price :
  validate_update ex_verify (ex_tx (501 * 10 ^ 8 - 1)) (encode_update ex_good) (StoreSome ex_prev) = Err.
Proof. vm_compute. reflexivity. Qed.
(* approval that verifies only under the NEW custodian's key is refused *)
Example ex_reject_foreign_approval :
  validate_update ex_verify (ex_tx (700 * 10 ^ 8)) (encode_update ex_good)
    (StoreSome {| p_cust := (ex_key 200, ex_key 201); p_nodes := [] |}) = Err.
Proof. vm_compute. reflexivity. Qed.
(* out of order, and a repeated custodian key: refused even if every signature verifies *)
Example ex_reject_unsorted :
  parse_update yes false (encode_update (ex_update [1; 2; 4; 3; 5; 6; 7]%N)) = Err.
Proof. vm_compute. reflexivity. Qed.
Example ex_reject_duplicate :
  parse_update yes false (encode_update (ex_update [1; 2; 3; 3; 4; 5; 6; 7]%N)) = Err.
Proof. vm_compute. reflexivity. Qed.
Example ex_shaped_unsorted : update_shaped (ex_update [1; 2; 4; 3; 5; 6; 7]%N) /\
  ~ StronglySorted nlt (u_nodes (ex_update [1; 2; 4; 3; 5; 6; 7]%N)).
Proof.
  split.
  - unfold update_shaped. repeat split; try reflexivity.
    repeat (constructor; [repeat split; reflexivity|]). constructor.
  - intro S. apply sort_of_sorted in S. vm_compute in S. discriminate.
Qed.
(* six entries are too few; a bad payee signature is refused *)
Example ex_reject_six : parse_update yes false (encode_update (ex_update [1; 2; 3; 4; 5; 6]%N)) = Err.
Proof. vm_compute. reflexivity. Qed.
Example ex_reject_bad_signature :
  parse_update (fun k m s => negb (bytes_eqb k (ex_key 53))) false (encode_update ex_good) = Err.
Proof. vm_compute. reflexivity. Qed.

(* FINDING: "unique keys" read over every key field does not hold.
   The uniqueness filter stores all four keys of each entry but only looks up
   the two SPEND keys of the entry being added.  A spend key equal to a view
   key of an EARLIER entry is refused; the same reuse with the view key in the
   entry itself or in a LATER entry is accepted.  Witness below (entry 3's
   custodian spend key is entry 7's payee view key); on real code: harness
   corpus cases cross/ps=cv/src-later, cross/cs=pv/src-later, cross/ps=own-cv
   (known_findings.txt, sig accept-spend-key-equals-later-view-key).
   C34_accept_implies is unaffected: it claims distinct SPEND keys. *)
Definition with_payee_view (f : node_fields) (pv : bytes) : node_fields :=
  {| f_cust := f_cust f; f_payee := (fst (f_payee f), pv); f_node_id := f_node_id f;
     f_signer_sig := f_signer_sig f; f_payee_sig := f_payee_sig f; f_cust_sig := f_cust_sig f |}.
Definition ex_update_of (fs : list node_fields) : update :=
  {| u_cust := (ex_key 200, ex_key 201); u_nodes := map cnode_of_fields fs; u_sig := repeat 9%N 64 |}.
Definition ex_view_later : update :=
  ex_update_of [ex_fields 1; ex_fields 2; ex_fields 3; ex_fields 4; ex_fields 5; ex_fields 6;
                with_payee_view (ex_fields 7) (ex_key 3)]%N.
Definition ex_view_earlier : update :=
  ex_update_of [with_payee_view (ex_fields 1) (ex_key 3); ex_fields 2; ex_fields 3; ex_fields 4;
                ex_fields 5; ex_fields 6; ex_fields 7]%N.

Theorem C34_all_keys_unique_refuted :
  exists verify tx extra store u n m,
    validate_update verify tx extra store = Ok tt /\ extra = encode_update u /\
    In n (u_nodes u) /\ In m (u_nodes u) /\ n <> m /\
    cn_cust_spend n = cn_payee_view m.
Proof.
  exists ex_verify, (ex_tx (700 * 10 ^ 8)), (encode_update ex_view_later),
         (StoreSome {| p_cust := (ex_key 250, ex_key 251); p_nodes := [] |}), ex_view_later,
         (cnode_of_fields (ex_fields 3)), (cnode_of_fields (with_payee_view (ex_fields 7) (ex_key 3))).
  split; [vm_compute; reflexivity|]. split; [reflexivity|].
  split; [right; right; left; reflexivity|].
  split; [do 6 right; left; reflexivity|].
  split; [|reflexivity].
  intro H. apply (f_equal cn_cust_spend) in H. vm_compute in H. discriminate.
Qed.
Print Assumptions C34_all_keys_unique_refuted.

(* the mirror image - the view key sits in an earlier entry - is refused *)
Example ex_view_earlier_rejected : parse_update yes false (encode_update ex_view_earlier) = Err.
Proof. vm_compute. reflexivity. Qed.
