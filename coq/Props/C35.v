(* C35 - the local topology order is a strictly increasing unique cursor.
   Property theorems, proved from the lemmas of Proofs/Topology.v
   about the executable model Model/Topology.v, which the
   correspondence harness (harness/cmd/c35) runs against
   storage/badger_topology.go, WriteSnapshot and kernel TopoWrite on a real
   Badger store.

   Vocabulary: [wrun ws] is the store after the write history [ws] (pairs
   (position, snapshot hash) handed to WriteSnapshot; a panicking write leaves
   the store as it was), so the theorems hold after every history of writes and
   for every listing / lookup made at that point (reads do not change the
   store).  [positions s] / [hashes s]: the stored index in key order.
   [debug = true]: config.Debug, under which WriteSnapshot refuses a snapshot
   that is already stored (regenerated from the repository on every run). *)
From Coq Require Import List ZArith NArith Bool Permutation Sorted.
Require Import Mixin.Base.Res Mixin.Model.Topology Mixin.Proofs.Topology.
Import ListNotations.
Open Scope N_scope.

(* Each stored snapshot has one position and each position one snapshot. *)
Theorem C35_unique : forall ws,
  let s := wrun ws in
  StronglySorted N.lt (positions s) /\ NoDup (positions s) /\ (debug = true -> NoDup (hashes s)).
Proof.
  intros ws s. pose proof (wrun_inv ws : TInv s) as HI.
  exact (conj (ti_sorted s HI) (conj (ss_nodup _ (ti_sorted s HI)) (ti_hashes s HI))).
Qed.
Print Assumptions C35_unique.

(* A write to a taken position is a panic (in every store, reachable or not). *)
Theorem C35_reuse_panics : forall s pos hash,
  In pos (positions s) -> write_snapshot s pos hash = Panic.
Proof. intros s pos hash Hin. destruct (write_cases s pos hash) as [[E _]|(_ & Hfree & _)]; [exact E | destruct (Hfree Hin)]. Qed.
Print Assumptions C35_reuse_panics.

(* Positions assigned by the node (a counter started from the last stored
   snapshot, any sequence of TopoWrite calls, as long as the uint64 counter
   does not wrap): strictly increasing, each above every position that was
   stored before, each stored; nothing stored before is lost. *)
Theorem C35_unique_increasing : forall ws hs n,
  topo_init (wrun ws) = Ok n -> tn_seq n + N.of_nat (length hs) < two64 ->
  let '(n', rs) := topo_run n hs in
  StronglySorted N.lt (assigned rs) /\
  Forall (fun p => (forall q, In q (positions (wrun ws)) -> q < p) /\ In p (positions (tn_store n'))) (assigned rs) /\
  (forall q, In q (positions (wrun ws)) -> In q (positions (tn_store n'))).
Proof.
  intros ws hs n Hi Hb. destruct (init_thm _ _ (wrun_inv ws) Hi) as [Hst HC].
  pose proof (counter_thm hs n HC Hb) as H. destruct HC as [_ Hle].
  destruct (topo_run n hs) as [n' rs]. destruct H as (_ & Hs & Hf & Hk). rewrite Hst in Hk, Hle.
  split; [exact Hs|]. split; [|exact Hk]. eapply Forall_impl; [|exact Hf]. cbn. intros p [H1 H2].
  split; [|exact H2]. intros q Hq. rewrite Forall_forall in Hle. exact (N.le_lt_trans _ _ _ (Hle q Hq) H1).
Qed.
Print Assumptions C35_unique_increasing.

(* One TopoWrite: the position is counter+1, it was free, the index gains
   exactly that entry; the only refusal is a snapshot that is already stored. *)
Theorem C35_topo_write : forall n hash,
  CInv n -> tn_seq n + 1 < two64 ->
  let '(n', r) := topo_write n hash in
  CInv n' /\ tn_seq n' = tn_seq n + 1 /\
  match r with
  | Ok p => p = tn_seq n + 1 /\ ~ In p (positions (tn_store n)) /\
            Permutation ((p, hash) :: t_index (tn_store n)) (t_index (tn_store n'))
  | Err => False
  | Panic => debug = true /\ In hash (hashes (tn_store n)) /\ tn_store n' = tn_store n
  end.
Proof. exact topo_write_thm. Qed.
Print Assumptions C35_topo_write.

(* Listing from a cursor: refused above 500; otherwise the result l is a
   contiguous run of the stored index (index = pre ++ l ++ post) that starts at
   the first position >= cursor (everything before is below the cursor,
   everything from l on is not), in strictly increasing position order, each
   entry being the stored (position, payload hash) pair, of at most count
   entries and of exactly count entries unless the index ends. *)
Theorem C35_listing : forall ws off cnt,
  let s := wrun ws in
  (list_limit < cnt -> list_since s off cnt = Err) /\
  (cnt <= list_limit ->
   exists l pre post,
     list_since s off cnt = Ok l /\
     t_index s = pre ++ l ++ post /\
     Forall (fun e => fst e < off) pre /\
     Forall (fun e => off <= fst e) (l ++ post) /\
     StronglySorted N.lt (map fst l) /\
     N.of_nat (length l) <= cnt /\
     (post <> [] -> N.of_nat (length l) = cnt)).
Proof. intros ws off cnt. exact (listing_thm (wrun ws) off cnt (wrun_inv ws)). Qed.
Print Assumptions C35_listing.

(* Lookup by hash agrees with the listing: it never fails, finds exactly the
   stored snapshots, returns the position the index holds for that hash, and
   the listing from that cursor starts with this very snapshot. *)
Theorem C35_lookup_agrees : forall ws,
  debug = true ->
  let s := wrun ws in
  (forall h, lookup s h <> Err) /\
  (forall h p g, lookup s h = Ok (Some (p, g)) ->
     g = h /\ In (p, h) (t_index s) /\ list_since s p 1 = Ok [(p, h)]) /\
  (forall h p, In (p, h) (t_index s) -> lookup s h = Ok (Some (p, h))) /\
  (forall h, ~ In h (hashes s) -> lookup s h = Ok None).
Proof. intros ws Hd. exact (lookup_thm (wrun ws) (wrun_inv ws) Hd). Qed.
Print Assumptions C35_lookup_agrees.

Example C35_ex_debug : debug = true.
Proof. reflexivity. Qed.

Definition c35_ws : list (N * N) := [(0, 100); (1, 101); (5, 102); (1, 103); (3, 104); (7, 101); (6, 105)].

Example C35_ex_store :
  t_index (wrun c35_ws) = [(0, 100); (1, 101); (3, 104); (5, 102); (6, 105)] /\
  list_since (wrun c35_ws) 2 2 = Ok [(3, 104); (5, 102)] /\
  list_since (wrun c35_ws) 0 501 = Err /\
  list_since (wrun c35_ws) 7 500 = Ok [] /\
  lookup (wrun c35_ws) 102 = Ok (Some (5, 102)) /\
  lookup (wrun c35_ws) 103 = Ok None /\
  write_snapshot (wrun c35_ws) 5 999 = Panic /\
  write_snapshot (wrun c35_ws) 9 101 = Panic.
Proof. vm_compute. repeat split. Qed.

Example C35_ex_counter :
  exists n, topo_init (wrun c35_ws) = Ok n /\ tn_seq n = 6 /\
            snd (topo_run n [200; 201; 101; 202]) = [Ok 7; Ok 8; Panic; Ok 10] /\
            topo_init t_empty = Panic.
Proof. exists (mk_tnode 6 (wrun c35_ws)). vm_compute. repeat split. Qed.
