(* C24 - retiring a local proposal never loses a pending transaction.
   Property theorems, proved from the lemmas of Proofs/Retire.v about
   the executable model Model/Retire.v (over Model/Cache.v), which the
   correspondence harness (harness/cmd/c24) runs against the real retire paths
   of kernel/cosi.go and kernel/queue.go on a node with a Badger store.

   Vocabulary.  [unfinalized ps h]: storage.ReadTransaction reports no
   finalization for h.  [has_body ps c h]: a persistent body exists or the
   cache returns a decodable body.  [eligible c h]: the cache holds a queue
   entry and a body for h; by Proofs/Cache.v [eligible_retrieved] (restated as
   the last theorem) such a transaction is returned by every successful
   retrieval whose limit covers the queue.  [cache_wf]: an order record is
   backed by a queue entry and a body - an invariant of every state reachable
   through the cache operations (C23_queue_eligible).
   Reading of the second sentence of the property: the [owned] exclusion of the
   reset path, and the preservation of the verifier entries of proposals that
   are not retired; a transaction shared between a retired and a live proposal
   IS re-queued, as the first sentence requires. *)
From Coq Require Import List ZArith NArith Bool.
Require Import Mixin.Base.Res Mixin.Gen.Consts Mixin.Model.Cache Mixin.Model.Retire
               Mixin.Proofs.Cache Mixin.Proofs.Retire.
Import ListNotations.
Open Scope N_scope.

(* No loss: terminal failure (retry), expiry after the round gap, round reset. *)
Theorem C24_no_loss :
  (forall ps s st h,
     cache_wf (cch st) -> In h (s_txs s) -> unfinalized ps h -> has_body ps (cch st) h ->
     eligible (cch (retry ps s st)) h) /\
  (forall ps now st a h,
     cache_wf (cch st) -> In a (aggs st) -> expires now a = true -> In h (s_txs (a_snap a)) ->
     unfinalized ps h -> has_body ps (cch st) h ->
     eligible (cch (expire ps now st)) h) /\
  (forall ps owned st a h,
     cache_wf (cch st) -> In a (aggs st) -> In h (s_txs (a_snap a)) ->
     unfinalized ps h -> has_body ps (cch st) h ->
     eligible (cch (reset ps owned st)) h \/ In h owned).
Proof.
  split; [|split].
  - intros ps s st h Hwf Hin Hu Hb. apply retry_no_loss; try assumption. left. exact Hb.
  - intros ps now st a h Hwf Ha He Hh Hu Hb. rewrite expire_fold.
    apply (efold_no_loss ps now (aggs st) st a h); try assumption. left. exact Hb.
  - exact reset_no_loss.
Qed.
Print Assumptions C24_no_loss.

(* The retired proposals really leave the maps (so late messages cannot revive
   them), and the retire paths keep the cache invariant. *)
Theorem C24_retired_removed :
  (forall ps s st a, In a (aggs (retry ps s st)) -> agg_hash a <> s_hash s) /\
  (forall ps owned st, aggs (reset ps owned st) = [] /\ vers (reset ps owned st) = []) /\
  (forall ps s st, cache_wf (cch st) -> cache_wf (cch (retry ps s st))) /\
  (forall ps now st, cache_wf (cch st) -> cache_wf (cch (expire ps now st))).
Proof.
  split; [|split; [|split]].
  - intros ps s st a Hin. rewrite (retry_aggs ps s st) in Hin.
    apply filter_In in Hin as [_ Hin%negb_true_iff%N.eqb_neq]. exact Hin.
  - intros ps owned st. destruct (reset_fields ps owned st) as [H1 [H2 _]]. split; assumption.
  - intros ps s st. apply retry_grows.
  - intros ps now st. rewrite expire_fold. apply efold_grows.
Qed.
Print Assumptions C24_retired_removed.

(* A transaction owned by the snapshot that triggers the round transition is
   not re-queued by the reset: its queue entries, order record and body are
   exactly what they were. *)
Theorem C24_owned_not_requeued : forall ps owned st h,
  In h owned ->
  let c := cch st in let c' := cch (reset ps owned st) in
  pending h c' = pending h c /\
  (forall ts, In (ts, h) (queue c') <-> In (ts, h) (queue c)) /\
  (In h (order c') <-> In h (order c)) /\
  aget h (payload c') = aget h (payload c).
Proof. exact reset_owned_untouched. Qed.
Print Assumptions C24_owned_not_requeued.

(* Expiry retires exactly the aggregators whose round gap has elapsed (uint64
   arithmetic of the code) and that are not complete; in particular an
   aggregator with threshold commitments and every corresponding response, or
   one whose gap has not elapsed, stays.  (Aggregators are keyed by snapshot
   hash in a Go map: hashes are distinct.) *)
Theorem C24_complete_not_expired : forall ps now st a,
  NoDup (map agg_hash (aggs st)) ->
  (In a (aggs (expire ps now st)) <-> In a (aggs st) /\ expires now a = false) /\
  ((a_base a <= a_commit a)%Z -> a_resp a = a_commit a -> expires now a = false) /\
  (now < (s_ts (a_snap a) + round_gap) mod 2 ^ 64 -> expires now a = false).
Proof.
  intros ps now st a Hn. split; [apply expire_aggs; exact Hn|].
  split; [apply complete_not_expires | apply not_yet_not_expires].
Qed.
Print Assumptions C24_complete_not_expired.

(* Verifier entries that belong to other proposals survive: abandoning or
   retrying s removes only the entry of s itself and the transaction entries
   that point to the verifier object of s; expiry likewise for every proposal
   it retires. *)
Theorem C24_foreign_verifiers_kept :
  (forall s st k v,
     aget k (vers st) = Some v -> k <> s_hash s -> aget (s_hash s) (vers st) <> Some v ->
     aget k (vers (abandon s st)) = Some v) /\
  (forall ps s st k v,
     aget k (vers st) = Some v -> k <> s_hash s -> aget (s_hash s) (vers st) <> Some v ->
     aget k (vers (retry ps s st)) = Some v) /\
  (forall ps now st k v,
     aget k (vers st) = Some v ->
     (forall a, In a (aggs st) -> expires now a = true ->
        k <> agg_hash a /\ aget (agg_hash a) (vers st) <> Some v) ->
     aget k (vers (expire ps now st)) = Some v) /\
  (forall s st, cch (abandon s st) = cch st).
Proof.
  split; [|split; [|split]].
  - intros s st k v. cbn [abandon vers]. apply abandon_vers_kept.
  - intros ps s st k v. rewrite (retry_vers ps s st). apply abandon_vers_kept.
  - intros ps now st k v H1 H2. rewrite expire_fold. apply efold_vers_kept; assumption.
  - reflexivity.
Qed.
Print Assumptions C24_foreign_verifiers_kept.

(* requeueTransactions itself: every listed transaction that is unfinalized and
   has a body becomes eligible; hashes not listed are untouched. *)
Theorem C24_requeue : forall ps hs c t,
  cache_wf c ->
  (forall h, In h hs -> unfinalized ps h -> has_body ps c h -> eligible (fst (requeue ps hs (c, t))) h) /\
  (forall h, ~ In h hs -> pending h (fst (requeue ps hs (c, t))) = pending h c).
Proof.
  intros ps hs c t Hwf. split.
  - intros h Hin Hu Hb. apply requeue_eligible_all; try assumption. left. exact Hb.
  - intros h Hn. destruct (requeue_same_at ps hs c t h Hn) as [H _]. exact H.
Qed.
Print Assumptions C24_requeue.

(* The kernel entry points through which transaction bodies reach the cache
   (kernel/node.go): CacheStoreTransactions never creates a queue entry or an
   order record - a body delivered for finalization does not become eligible
   (C23 at the kernel level) - and CacheQueueTransactions makes every
   unfinalized transaction it is given eligible. *)
Theorem C24_node_cache_wrappers :
  (forall ps txs c, queue (node_store ps txs c) = queue c /\ order (node_store ps txs c) = order c) /\
  (forall ps txs c t tx, cache_wf c -> In tx txs -> unfinalized ps (fst tx) ->
     eligible (fst (node_queue ps txs (c, t))) (fst tx)).
Proof. split; [exact node_store_queue | exact node_queue_eligible]. Qed.
Print Assumptions C24_node_cache_wrappers.

(* eligible = returned by the next successful retrieval whose limit covers the queue (from Proofs/Cache.v) *)
Theorem C24_eligible_is_retrievable : forall limit c out c' h,
  eligible c h -> retrieve limit c = Ok (out, c') ->
  (Z.of_nat (length (queue c)) <= limit)%Z ->
  exists b, In (h, b) out /\ aget h (payload c) = Some b.
Proof. exact eligible_retrieved. Qed.
Print Assumptions C24_eligible_is_retrievable.

Definition ex_ps : pstore := mkPstore [(5, 50)] [].
(* tx 4: body only in the cache, already retrieved; tx 5: persistent body; tx 6: no body *)
Definition ex_cache : cache := mkCache [] [] [(4, 40)].
Definition ex_s1 : snap := mkSnap 100 1000 [4; 5; 6].
Definition ex_s2 : snap := mkSnap 101 1000 [5].
Definition ex_st : rstate :=
  mkR [mkAgg ex_s1 2 1 3; mkAgg ex_s2 3 3 3] [(4, 1); (5, 2); (100, 1); (101, 2)] ex_cache 7.

Example C24_ex_hyps :
  cache_wf ex_cache /\ unfinalized ex_ps 4 /\ has_body ex_ps ex_cache 4 /\
  unfinalized ex_ps 5 /\ has_body ex_ps ex_cache 5 /\ ~ has_body ex_ps ex_cache 6.
Proof.
  split; [intros h []|]. split; [reflexivity|]. split; [right; exists 40; reflexivity|].
  split; [reflexivity|]. split; [left; discriminate|].
  intros [H|[b H]]; [apply H; reflexivity | discriminate].
Qed.

(* expiry at 1000+gap retires the incomplete proposal 100 only; 4 and 5 are queued
   with the cache / persistent body; the verifier entries of proposal 101 stay *)
Example C24_ex_expire :
  let st' := expire ex_ps (1000 + round_gap) ex_st in
  map agg_hash (aggs st') = [101] /\ vers st' = [(5, 2); (101, 2)] /\
  map snd (queue (cch st')) = [4; 5] /\ payload (cch st') = [(4, 40); (5, 50)] /\
  map agg_hash (aggs (expire ex_ps (999 + round_gap) ex_st)) = [100; 101].
Proof. vm_compute. repeat split. Qed.

Example C24_ex_reset :
  let st' := reset ex_ps [5] ex_st in
  aggs st' = [] /\ vers st' = [] /\ map snd (queue (cch st')) = [4] /\ pending 5 (cch st') = 0%nat.
Proof. vm_compute. repeat split. Qed.
