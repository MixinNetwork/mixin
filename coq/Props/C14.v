(* C14 - aggregate transaction signatures are sound and bound to their signer
   set.  Property theorems, then non-vacuity examples, over the executable model Model/Aggregate.v of
   crypto/aggregation.go (discrete-log representation of the prime-order group,
   arbitrary prime order l, abstract point encoding enc and hash-to-scalar H).
   The correspondence harness (harness/cmd/c14) runs the model against
   AggregateSign / AggregateVerify, signature bytes included. *)
From Coq Require Import List ZArith NArith Bool Znumtheory Lia.
Require Import Mixin.Base.Res Mixin.Gen.Consts Mixin.Model.Group Mixin.Model.Aggregate.
Require Import Mixin.Proofs.Group Mixin.Proofs.Aggregate.
Import ListNotations.
Open Scope Z_scope.

(* A sorted in-range signer list over decodable keys, the matching private
   keys, a seed of at least 32 bytes: AggregateSign returns a signature, and it
   verifies for exactly these keys, signers and message (unless the weighted
   key or the aggregated nonce is the identity, which decodePoint refuses). *)
Theorem C14_complete : forall l enc H keys signers seed m, 0 < l ->
  signers_ok l keys signers -> Forall (fun i => i <= 65535) signers -> (32 <= length seed)%nat ->
  exists r s,
    aggregate_sign l enc H (map (key_at keys) signers) keys signers seed m = Ok (r, s) /\
    (point_ok l (weighted_key_of l enc H (sel_of keys signers)) = true -> point_ok l r = true ->
     aggregate_verify l enc H r s keys signers m = Ok tt).
Proof. exact sign_complete. Qed.
Print Assumptions C14_complete.

(* Whatever AggregateSign returns satisfies S.B = R + c.A for the weighted key A
   of its own signer set (private keys that do not match are refused). *)
Theorem C14_sign_sound : forall l enc H privs keys signers seed m r s, 0 < l ->
  aggregate_sign l enc H privs keys signers seed m = Ok (r, s) ->
  signers_ok l keys signers /\ 0 <= r < l /\ 0 <= s < l /\
  let a := weighted_key_of l enc H (sel_of keys signers) in
  cg l s (r + chal enc H r a m * a).
Proof. exact sign_sound. Qed.
Print Assumptions C14_sign_sound.

(* Empty, unsorted, duplicated or out-of-range signer lists (and undecodable
   selected keys) are refused by signing and verification alike, whatever the
   encoding and the hash are: no arithmetic is involved. *)
Theorem C14_order_range : forall l enc H keys signers,
  ~ signers_ok l keys signers ->
  collect_signers l keys signers = Err /\
  (forall privs seed m, aggregate_sign l enc H privs keys signers seed m = Err) /\
  (forall r s m, aggregate_verify l enc H r s keys signers m = Err).
Proof.
  intros l enc H keys signers Hn.
  assert (E : collect_signers l keys signers = Err).
  { rewrite collect_signers_eq. destruct (signers_okb l keys signers) eqn:Eb; [|reflexivity].
    apply signers_okb_iff in Eb. contradiction. }
  split; [exact E|]. split; intros.
  - unfold aggregate_sign, aggregate_weighted_public_key. rewrite E.
    destruct (negb _); [reflexivity|]. destruct (_ <? _)%nat; reflexivity.
  - unfold aggregate_verify, aggregate_weighted_public_key. rewrite E. reflexivity.
Qed.
Print Assumptions C14_order_range.

(* The condition on signer lists named there is exactly what the collection
   step accepts. *)
Theorem C14_signers_ok_iff : forall l keys s,
  collect_signers l keys s = Ok (sel_of keys s) <-> signers_ok l keys s.
Proof.
  intros l keys s. rewrite collect_signers_eq, <- signers_okb_iff.
  destruct (signers_okb l keys s); split; intros; try reflexivity; discriminate.
Qed.
Print Assumptions C14_signers_ok_iff.

(* Binding: if one signature verifies for (keys, signers, m) and for
   (keys', signers', m'), the two challenges c, c' and the two weighted keys
   A, A' satisfy c'.A' = c.A; for a prime order, c' - the hash of the second
   transcript - must be the one value c.A/A'. *)
Theorem C14_binding : forall l enc H r s keys signers m keys' signers' m', prime l ->
  aggregate_verify l enc H r s keys signers m = Ok tt ->
  aggregate_verify l enc H r s keys' signers' m' = Ok tt ->
  let a := weighted_key_of l enc H (sel_of keys signers) in
  let a' := weighted_key_of l enc H (sel_of keys' signers') in
  exists w, (a' * w) mod l = 1 mod l /\
            chal enc H r a' m' mod l = (chal enc H r a m * a * w) mod l.
Proof. exact binding_challenge. Qed.
Print Assumptions C14_binding.

(* ... so either the two challenge transcripts coincide (same encoded weighted
   key and same message: a collision of the weighted keys of two different
   signer transcripts), or the hash of a different transcript hits that value. *)
Theorem C14_binding_dichotomy : forall l enc H r s keys signers m keys' signers' m', prime l ->
  aggregate_verify l enc H r s keys signers m = Ok tt ->
  aggregate_verify l enc H r s keys' signers' m' = Ok tt ->
  let a := weighted_key_of l enc H (sel_of keys signers) in
  let a' := weighted_key_of l enc H (sel_of keys' signers') in
  challenge_input enc r a m = challenge_input enc r a' m' \/
  (challenge_input enc r a m <> challenge_input enc r a' m' /\
   exists w, (a' * w) mod l = 1 mod l /\
             H (challenge_input enc r a' m') mod l = (H (challenge_input enc r a m) * a * w) mod l).
Proof.
  intros l enc H r s keys signers m keys' signers' m' Hp H1 H2. cbv zeta.
  destruct (list_eq_dec N.eq_dec
              (challenge_input enc r (weighted_key_of l enc H (sel_of keys signers)) m)
              (challenge_input enc r (weighted_key_of l enc H (sel_of keys' signers')) m')) as [E|E];
    [left; exact E | right; split; [exact E|]].
  exact (binding_challenge l enc H _ _ _ _ _ _ _ _ Hp H1 H2).
Qed.
Print Assumptions C14_binding_dichotomy.

(* Subset: a signature AggregateSign built with the private keys of S verifies
   for another signer set S' (for instance S' > S) exactly when the one linear
   relation c.A_S = c'.A_S' over the hash-derived coefficients holds. *)
Theorem C14_subset : forall l enc H privs keys signers seed m r s keys' signers' m', 0 < l ->
  aggregate_sign l enc H privs keys signers seed m = Ok (r, s) ->
  signers_ok l keys' signers' ->
  let a := weighted_key_of l enc H (sel_of keys signers) in
  let a' := weighted_key_of l enc H (sel_of keys' signers') in
  (aggregate_verify l enc H r s keys' signers' m' = Ok tt <->
   0 < a' < l /\ 0 < r < l /\ cg l (chal enc H r a m * a) (chal enc H r a' m' * a')).
Proof.
  intros l enc H privs keys signers seed m r s keys' signers' m' Hl Hs Hok. cbv zeta.
  destruct (sign_sound l enc H _ _ _ _ _ _ _ Hl Hs) as (_ & Hr & Hsr & E). cbv zeta in E.
  rewrite verify_iff. cbv zeta. split.
  - intros (_ & Ha & Hr' & _ & E2). do 2 (split; [assumption|]).
    apply (cg_add_cancel_l l r). rewrite <- E, <- E2. reflexivity.
  - intros (Ha & Hr' & E2). do 4 (split; [assumption|]). rewrite E, E2. reflexivity.
Qed.
Print Assumptions C14_subset.

(* Rogue key x.B - K_v beside K_v: the weighted key still contains the victim's
   key with factor (a_v - a_rogue); it cancels only if two transcript hashes
   coincide. *)
Theorem C14_rogue_key : forall l enc H i j kv kr x, cg l kr (x - kv) ->
  let sel := [(i, kv); (j, kr)] in
  let tr := transcript enc sel in
  cg l (weighted_key_of l enc H sel)
       (coef enc H tr (j, kr) * x + (coef enc H tr (i, kv) - coef enc H tr (j, kr)) * kv).
Proof.
  intros l enc H i j kv kr x Hk. cbv zeta. unfold weighted_key_of. rewrite fsum_cg.
  cbn [map]. rewrite !zsum_cons, zsum_nil. cbn [snd]. rewrite !fmul_cg.
  set (c1 := coef enc H _ (i, kv)). set (c2 := coef enc H _ (j, kr)). rewrite Hk. cg_ring.
Qed.
Print Assumptions C14_rogue_key.


(* The byte-level transcripts are injective (fixed-width fields): given an
   encoding that is injective on [0,l) and 32 bytes wide, signer indexes below
   2^32 and keys in [0,l), the signer transcript (count, then index as uint32
   and key bytes per signer) determines the signer list and the keys at those
   positions; a coefficient transcript (domain, signer transcript, index, key)
   determines all three; the challenge transcript determines R, the weighted
   key and the message. *)
Theorem C14_transcript_injective : forall l enc,
  (forall a b, 0 <= a < l -> 0 <= b < l -> enc a = enc b -> a = b) ->
  (forall a, (enc a < n256)%N) ->
  (forall sel sel', Forall (entry_ok l) sel -> Forall (entry_ok l) sel' ->
     transcript enc sel = transcript enc sel' -> sel = sel') /\
  (forall tr tr' ik ik', entry_ok l ik -> entry_ok l ik' ->
     coef_input enc tr ik = coef_input enc tr' ik' -> tr = tr' /\ ik = ik') /\
  (forall r a m r' a' m', (m < n256)%N -> (m' < n256)%N ->
     challenge_input enc r a m = challenge_input enc r' a' m' -> enc r = enc r' /\ enc a = enc a' /\ m = m').
Proof.
  intros l enc Hinj Hr. split; [|split].
  - exact (transcript_inj l enc Hinj Hr).
  - exact (coef_input_inj l enc Hinj Hr).
  - exact (challenge_input_inj enc Hr).
Qed.
Print Assumptions C14_transcript_injective.

(* Binding restated over signer sets, keys and message (C14_binding_dichotomy
   with "transcripts coincide" resolved by injectivity): a signature accepted
   for (keys, signers, m) and for (keys', signers', m') means
   (i) the same signer list, the same keys at those positions and the same message; or
   (ii) different signer transcripts whose weighted keys collide although every
        coefficient on one side is the hash of an input different from every
        coefficient input on the other side; or
   (iii) the hash of a different challenge transcript equals the one value c.A/A'. *)
Theorem C14_binding_sets : forall l enc H r s keys signers m keys' signers' m',
  (forall a b, 0 <= a < l -> 0 <= b < l -> enc a = enc b -> a = b) ->
  (forall a, (enc a < n256)%N) ->
  prime l -> (m < n256)%N -> (m' < n256)%N ->
  Z.of_nat (length keys) <= 2 ^ 32 -> Z.of_nat (length keys') <= 2 ^ 32 ->
  aggregate_verify l enc H r s keys signers m = Ok tt ->
  aggregate_verify l enc H r s keys' signers' m' = Ok tt ->
  let sel := sel_of keys signers in let sel' := sel_of keys' signers' in
  let a := weighted_key_of l enc H sel in let a' := weighted_key_of l enc H sel' in
  (sel = sel' /\ m = m') \/
  (sel <> sel' /\ m = m' /\ a = a' /\
   forall ik ik', In ik sel -> In ik' sel' ->
     coef_input enc (transcript enc sel) ik <> coef_input enc (transcript enc sel') ik') \/
  (challenge_input enc r a m <> challenge_input enc r a' m' /\
   exists w, (a' * w) mod l = 1 mod l /\
             H (challenge_input enc r a' m') mod l = (H (challenge_input enc r a m) * a * w) mod l).
Proof.
  intros l enc H r s keys signers m keys' signers' m' Hinj Hr Hp Hm Hm' Hlen Hlen' H1 H2. cbv zeta.
  assert (Hl : 0 < l) by (destruct Hp; lia).
  pose proof (sel_entries_ok l _ _ (proj1 (proj1 (verify_iff l enc H _ _ _ _ _) H1)) Hlen) as HF.
  pose proof (sel_entries_ok l _ _ (proj1 (proj1 (verify_iff l enc H _ _ _ _ _) H2)) Hlen') as HF'.
  pose proof (binding_challenge l enc H _ _ _ _ _ _ _ _ Hp H1 H2) as HB. cbv zeta in HB.
  set (sel := sel_of keys signers) in *. set (sel' := sel_of keys' signers') in *.
  set (a := weighted_key_of l enc H sel) in *. set (a' := weighted_key_of l enc H sel') in *.
  destruct (list_eq_dec N.eq_dec (challenge_input enc r a m) (challenge_input enc r a' m')) as [E|E];
    [|right; right; split; [exact E | exact HB]].
  destruct (challenge_input_inj enc Hr _ _ _ _ _ _ Hm Hm' E) as (_ & Ea & Em).
  apply Hinj in Ea; try (apply fsum_range; exact Hl).
  assert (Hdec : {sel = sel'} + {sel <> sel'}) by (repeat decide equality).
  destruct Hdec as [Es|Es]; [left; split; assumption|].
  right; left. repeat split; try assumption.
  intros ik ik' Hin Hin' Ec. rewrite Forall_forall in HF, HF'.
  destruct (coef_input_inj l enc Hinj Hr _ _ _ _ (HF _ Hin) (HF' _ Hin') Ec) as [Etr _].
  apply Es, (transcript_inj l enc Hinj Hr); [apply Forall_forall; exact HF | apply Forall_forall; exact HF' | exact Etr].
Qed.
Print Assumptions C14_binding_sets.

(* sel_of equality is equality of the signer lists and of the keys they select *)
Theorem C14_sel_eq : forall keys s keys' s', sel_of keys s = sel_of keys' s' ->
  s = s' /\ map (key_at keys) s = map (key_at keys') s'.
Proof.
  intros keys s keys' s' E. split.
  - apply (f_equal (map fst)) in E. unfold sel_of in E. rewrite !map_map in E. cbn [fst] in E.
    rewrite !map_id in E. exact E.
  - apply (f_equal (map snd)) in E. unfold sel_of in E. rewrite !map_map in E. exact E.
Qed.
Print Assumptions C14_sel_eq.

(* Non-vacuity over l = 13 with a toy encoding and hash. *)
Definition ex_enc (p : Z) : N := Z.to_N (p + 100).
Definition ex_H (b : list N) : Z := Z.of_N (fold_left (fun acc x => (acc * 7 + x + 3) mod 13)%N b 5%N).

Example C14_ex_sign_verify :
  let keys := [3; 5; 11; 6] in let signers := [0; 2; 3] in
  let seed := repeat 9%N 32 in
  signers_okb 13 keys signers = true /\
  match aggregate_sign 13 ex_enc ex_H [3; 11; 6] keys signers seed 77%N with
  | Ok (r, s) =>
      [aggregate_verify 13 ex_enc ex_H r s keys signers 77%N;
       aggregate_verify 13 ex_enc ex_H r s keys [0; 2] 77%N;
       aggregate_verify 13 ex_enc ex_H r s keys [2; 0; 3] 77%N;
       aggregate_verify 13 ex_enc ex_H r s keys [0; 2; 2; 3] 77%N;
       aggregate_verify 13 ex_enc ex_H r s keys [0; 2; 4] 77%N;
       aggregate_verify 13 ex_enc ex_H r s keys signers 78%N]
      = [Ok tt; Err; Err; Err; Err; Err]
  | _ => False
  end.
Proof. vm_compute. split; reflexivity. Qed.

(* the toy encoding meets the injectivity hypotheses, and transcripts of
   different signer lists / keys differ *)
Example C14_ex_transcripts :
  (forall a b, 0 <= a < 13 -> 0 <= b < 13 -> ex_enc a = ex_enc b -> a = b) /\
  transcript ex_enc [(0, 3); (2, 11)] <> transcript ex_enc [(0, 3); (1, 11)] /\
  transcript ex_enc [(0, 3); (2, 11)] <> transcript ex_enc [(0, 3); (2, 6)] /\
  transcript ex_enc [(0, 3); (2, 11)] <> transcript ex_enc [(0, 3)] /\
  length (transcript ex_enc [(0, 3); (2, 11)]) = 76%nat.
Proof.
  split; [|vm_compute; repeat split; discriminate].
  intros a b Ha Hb E. unfold ex_enc in E. apply Z2N.inj in E; lia.
Qed.
