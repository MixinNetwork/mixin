(* C23 - only queueing makes a cached transaction eligible for proposal.
   Property theorems, proved from the lemmas of Proofs/Cache.v about the
   executable model Model/Cache.v, which the correspondence harness
   (harness/cmd/c23) runs against the real Badger cache store op by op.
   Record TTL expiry is outside the model. *)
From Coq Require Import List ZArith NArith Bool.
Require Import Mixin.Base.Res Mixin.Model.Cache Mixin.Proofs.Cache.
Import ListNotations.
Open Scope N_scope.

(* A retrieval returns a hash only if a queue entry for it exists; an
   operation other than [queue] never creates a queue entry (in particular
   [store] leaves queue and order records untouched); over any history, a hash
   that was returned was the subject of a queue operation. *)
Theorem C23_eligible_only_if_queued :
  (forall limit c out c' h b, retrieve limit c = Ok (out, c') -> In (h, b) out ->
     (exists ts, In (ts, h) (queue c)) /\ aget h (payload c) = Some b) /\
  (forall c o k, In k (queue (fst (step c o))) ->
     In k (queue c) \/ exists b, o = OQueue (fst k) (snd k) b) /\
  (forall h b c, queue (store_tx h b c) = queue c /\ order (store_tx h b c) = order c /\
     forall limit out c', retrieve limit (store_tx h b c) = Ok (out, c') ->
       forall x bx, In (x, bx) out -> exists ts, In (ts, x) (queue c)) /\
  (forall ops h, In h (t_returned (run ops start)) -> (1 <= queue_ops h ops)%nat).
Proof.
  split; [exact retrieve_only_queued|]. split; [exact step_queue_origin|]. split; [|exact returned_was_queued].
  intros h b c. destruct (store_queue h b c) as [Hq Ho]. split; [exact Hq|]. split; [exact Ho|].
  intros limit out c' Hr x bx Hin. rewrite <- Hq. exact (proj1 (retrieve_only_queued _ _ _ _ _ _ Hr Hin)).
Qed.
Print Assumptions C23_eligible_only_if_queued.

(* Over ANY history, for every hash:
   (times returned by retrievals) + (queue entries still pending) is at most the
   number of queue entries ever written, which is at most the number of queue
   operations for it.  So every return consumes an entry of its own: each
   queueing is returned by at most one retrieval. *)
Theorem C23_accounting : forall ops h,
  let t := run ops start in
  (count h (t_returned t) + pending h (t_cache t) <= count h (t_created t))%nat /\
  (count h (t_created t) <= queue_ops h ops)%nat.
Proof. exact accounting. Qed.
Print Assumptions C23_accounting.

(* One retrieval: what it consumes is a prefix of the queue that is deleted,
   everything it returns lies in that prefix and has a decodable body, the order
   records of the consumed hashes are deleted. *)
Theorem C23_retrieve_consumes : forall limit c out c',
  retrieve limit c = Ok (out, c') ->
  exists pre,
    queue c = pre ++ queue c' /\
    payload c' = payload c /\
    (forall x, In x (order c') <-> In x (order c) /\ ~ In x (map snd pre)) /\
    (forall h b, In (h, b) out -> In h (map snd pre) /\ aget h (payload c) = Some b /\ b <> 0) /\
    NoDup (map fst out) /\
    (Z.of_nat (length out) <= Z.max 0 limit)%Z.
Proof. exact retrieve_spec. Qed.
Print Assumptions C23_retrieve_consumes.

(* In every state reached by a history the queue keys form a set, so the
   entries a retrieval consumes (every returned hash has one among them) are
   absent afterwards: an entry is consumed by at most one retrieval. *)
Theorem C23_consumed_once : forall ops limit out c',
  retrieve limit (t_cache (run ops start)) = Ok (out, c') ->
  exists pre, queue (t_cache (run ops start)) = pre ++ queue c' /\
    (forall h, In h (map fst out) -> exists ts, In (ts, h) pre) /\
    (forall k, In k pre -> ~ In k (queue c')).
Proof.
  intros ops limit out c' (pre & Hq & _ & _ & Ho & _)%retrieve_spec.
  exists pre. split; [exact Hq|]. split.
  - intros h ([h' b] & <- & Hin)%in_map_iff. apply in_map_snd, (Ho _ _ Hin).
  - apply sortedq_app. rewrite <- Hq. apply (run_cache_inv _ sortedq_step). exact I.
Qed.
Print Assumptions C23_consumed_once.

(* A retrieval returns each transaction at most once and at most [limit]. *)
Theorem C23_retrieve_shape : forall limit c out c',
  retrieve limit c = Ok (out, c') ->
  NoDup (map fst out) /\ (Z.of_nat (length out) <= Z.max 0 limit)%Z.
Proof. intros limit c out c' (pre & _ & _ & _ & _ & Hn)%retrieve_spec. exact Hn. Qed.
Print Assumptions C23_retrieve_shape.

(* Retrieval keeps every stored body. *)
Theorem C23_body_kept : forall limit c out c',
  retrieve limit c = Ok (out, c') ->
  payload c' = payload c /\ forall h b, In (h, b) out -> get_tx h c' = Ok (Some b).
Proof.
  intros limit c out c' (pre & _ & Hp & _ & Ho & _)%retrieve_spec. split; [exact Hp|].
  intros h b (_ & Hb & Hz%N.eqb_neq)%Ho. unfold get_tx, read_body. rewrite Hp, Hb, Hz. reflexivity.
Qed.
Print Assumptions C23_body_kept.

(* Re-queueing after a retrieval writes a new entry, refreshes the body, and the
   transaction is returned by the next retrieval whose limit covers the queue. *)
Theorem C23_requeue_eligible : forall l1 c out c1 h ts b,
  retrieve l1 c = Ok (out, c1) -> In h (map fst out) -> b <> 0 ->
  let c2 := queue_tx ts h b c1 in
  In (ts, h) (queue c2) /\ get_tx h c2 = Ok (Some b) /\
  forall l2 out2 c3, retrieve l2 c2 = Ok (out2, c3) ->
    (Z.of_nat (length (queue c2)) <= l2)%Z -> In (h, b) out2.
Proof.
  intros l1 c out c1 h ts b Hr Hin%(retrieve_clears_order _ _ _ _ _ Hr)%mem_false Hb%N.eqb_neq c2.
  destruct (queue_tx_fresh ts h b c1 Hin) as [Hq Hp]. fold c2 in Hq, Hp.
  split; [exact Hq|]. split; [unfold get_tx, read_body; rewrite Hp, Hb; reflexivity|].
  intros l2 out2 c3 Hr2 Hl.
  destruct (eligible_retrieved _ _ _ _ h (conj (ex_intro _ ts Hq) (ex_intro _ b Hp)) Hr2 Hl) as (b' & Hin2 & Hb').
  congruence.
Qed.
Print Assumptions C23_requeue_eligible.

(* In every state reachable through the operations, queueing makes the
   transaction eligible (also when the queueing is deduplicated), and an
   eligible transaction is returned by any successful covering retrieval. *)
Theorem C23_queue_eligible :
  (forall ops, cache_wf (t_cache (run ops start))) /\
  (forall ts h b c, cache_wf c -> eligible (queue_tx ts h b c) h) /\
  (forall limit c out c' h, eligible c h -> retrieve limit c = Ok (out, c') ->
     (Z.of_nat (length (queue c)) <= limit)%Z ->
     exists b, In (h, b) out /\ aget h (payload c) = Some b).
Proof.
  split; [|split; [exact queue_tx_eligible | exact eligible_retrieved]].
  intros ops. apply (run_cache_inv _ wf_step), wf_empty.
Qed.
Print Assumptions C23_queue_eligible.

(* Removal deletes the body (and only body and order record). *)
Theorem C23_remove_deletes_body : forall hs c h,
  In h hs -> get_tx h (remove_txs hs c) = Ok None /\ queue (remove_txs hs c) = queue c.
Proof.
  intros hs c h Hin%mem_In. split; [|apply remove_queue].
  unfold get_tx, read_body. rewrite remove_payload, Hin. reflexivity.
Qed.
Print Assumptions C23_remove_deletes_body.

(* store alone: nothing to retrieve; queue: retrieved once with the refreshed body; re-queue: again *)
Example C23_ex_history :
  let t := run [OStore 7 1; ORetrieve 5; OQueue 10 7 2; OQueue 11 7 3; ORetrieve 5; ORetrieve 5;
                OQueue 12 7 3; ORetrieve 5] start in
  t_returned t = [7; 7] /\ t_created t = [7; 7] /\ queue (t_cache t) = [] /\
  get_tx 7 (t_cache t) = Ok (Some 3).
Proof. vm_compute. repeat split. Qed.

(* removal leaves a stale entry; a second queueing adds another; one retrieval returns the hash once *)
Example C23_ex_two_entries :
  let t := run [OQueue 10 7 2; ORemove [7]; OQueue 11 7 3; ORetrieve 5; ORetrieve 5] start in
  t_returned t = [7] /\ t_created t = [7; 7] /\ pending 7 (t_cache t) = 0%nat.
Proof. vm_compute. repeat split. Qed.

Example C23_ex_requeue_hyps :
  exists c out c1, retrieve 1 c = Ok (out, c1) /\ In 7 (map fst out) /\
    exists out2 c3, retrieve 9 (queue_tx 20 7 4 c1) = Ok (out2, c3) /\ In (7, 4) out2.
Proof.
  exists (queue_tx 10 7 2 empty_cache). eexists. eexists. split; [vm_compute; reflexivity|].
  split; [left; reflexivity|]. eexists. eexists. split; [vm_compute; reflexivity | left; reflexivity].
Qed.

(* an undecodable body aborts the retrieval that reaches it and leaves the state unchanged *)
Example C23_ex_corrupt :
  let c := mkCache [(1, 7)] [7] [(7, 0)] in
  retrieve 5 c = Err /\ fst (step c (ORetrieve 5)) = c /\ retrieve 0 c = Ok ([], c).
Proof. vm_compute. repeat split. Qed.
