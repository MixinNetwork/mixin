(* C32 - one-time keys and addresses round-trip correctly.
   Property theorems, then non-vacuity examples, over the executable models GhostKey (crypto/key.go,
   prime-order group in discrete-log representation, any modulus l > 0, any
   HashScalar), Base58 (util/base58), Address (common/address.go, any SHA3 / any
   CheckKey) and HexText (text and JSON forms of key, hash, signature,
   collective signature), which harness/cmd/c32 runs against the real code. *)
From Coq Require Import List ZArith NArith Bool.
Require Import Mixin.Base.Res Mixin.Gen.Consts Mixin.Model.GhostKey Mixin.Model.Base58
  Mixin.Model.Address Mixin.Model.HexText
  Mixin.Proofs.GhostKey Mixin.Proofs.Base58 Mixin.Proofs.Address Mixin.Proofs.HexText.
Import ListNotations.

(* The public key of the private key the recipient derives (from the mask
   R = r·G and its private keys a, b) is the one-time public key the sender
   derives (from r and the address A = a·G, B = b·G), for every output index. *)
Theorem C32_ghost : forall (l : Z) (hs : Z -> Z -> Z), (0 < l)%Z -> forall r a b i,
  pub l (derive_private l hs (pub l r) a b i) = derive_public l hs r (pub l a) (pub l b) i.
Proof. exact ghost_match. Qed.
Print Assumptions C32_ghost.

(* Viewing the one-time key with the private view key recovers the public spend key. *)
Theorem C32_view : forall (l : Z) (hs : Z -> Z -> Z), (0 < l)%Z -> forall r a b i,
  view l hs (derive_public l hs r (pub l a) (pub l b) i) a (pub l r) i = pub l b.
Proof. exact ghost_view. Qed.
Print Assumptions C32_view.

Theorem C32_base58_decode_encode : forall bs,
  Forall (fun b => (b < 256)%N) bs -> decode (encode bs) = bs.
Proof. exact decode_encode. Qed.
Print Assumptions C32_base58_decode_encode.

Theorem C32_base58_encode_decode : forall s, over_alphabet s -> encode (decode s) = s.
Proof. exact encode_decode. Qed.
Print Assumptions C32_base58_encode_decode.

(* a text with a character outside the alphabet decodes to the empty string *)
Theorem C32_base58_invalid : forall s, ~ over_alphabet s -> decode s = [].
Proof. exact decode_invalid. Qed.
Print Assumptions C32_base58_invalid.

(* Go's Decode ranges over runes and refuses every rune >= 128 and invalid UTF-8;
   on the UTF-8 bytes of the text that is: a byte >= 128 anywhere => empty result. *)
Theorem C32_base58_non_ascii : forall s, Exists (fun c => (128 <= c)%N) s -> decode s = [].
Proof.
  intros s (c & Hin & Hc)%Exists_exists. apply decode_invalid. intros Ho%over_alphabet_ascii.
  rewrite Forall_forall in Ho. exact (N.lt_irrefl c (N.lt_le_trans _ _ _ (Ho c Hin) Hc)).
Qed.
Print Assumptions C32_base58_non_ascii.

(* Any accepted address text prints back identically. *)
Theorem C32_address_canonical : forall (H : list N -> list N) (check_key : list N -> bool) s a,
  of_string H check_key s = Ok a -> to_string H a = s.
Proof. exact address_canonical. Qed.
Print Assumptions C32_address_canonical.

(* An accepted address text is the prefix followed by alphabet characters: pure ASCII. *)
Theorem C32_address_accepted_ascii : forall (H : list N -> list N) (check_key : list N -> bool) s a,
  of_string H check_key s = Ok a ->
  exists body, s = prefix ++ body /\ over_alphabet body /\ Forall (fun c => (c < 128)%N) s.
Proof.
  intros H ck s [sp vw] <-%address_canonical. unfold to_string.
  eexists. split; [reflexivity|]. split; [apply encode_over_alphabet|].
  apply Forall_app. split; [repeat constructor|apply over_alphabet_ascii, encode_over_alphabet].
Qed.
Print Assumptions C32_address_accepted_ascii.

(* A printed address of two valid keys parses back to the same keys. *)
Theorem C32_address_roundtrip : forall (H : list N -> list N) (check_key : list N -> bool),
  (forall x, length (H x) = 32%nat) -> (forall x, Forall (fun b => (b < 256)%N) (H x)) ->
  forall sp vw,
  length sp = 32%nat -> length vw = 32%nat ->
  Forall (fun b => (b < 256)%N) sp -> Forall (fun b => (b < 256)%N) vw ->
  check_key sp = true -> check_key vw = true ->
  of_string H check_key (to_string H (sp, vw)) = Ok (sp, vw).
Proof. exact address_roundtrip. Qed.
Print Assumptions C32_address_roundtrip.

(* Two different accepted texts never denote the same address: a mutated
   printed address is refused or is another address. *)
Theorem C32_address_text_injective : forall (H : list N -> list N) (check_key : list N -> bool) s t a,
  of_string H check_key s = Ok a -> of_string H check_key t = Ok a -> s = t.
Proof.
  intros H ck s t a Hs Ht.
  now rewrite <- (address_canonical H ck s a Hs), <- (address_canonical H ck t a Ht).
Qed.
Print Assumptions C32_address_text_injective.

(* the hexadecimal text form, for every size (key, hash, signature: 32, 32, 64 bytes) *)
Theorem C32_print_parse_fixed : forall size bs, bytes bs -> length bs = size ->
  fixed_of_string size (fixed_to_string bs) = Ok bs.
Proof. exact fixed_print_parse. Qed.
Print Assumptions C32_print_parse_fixed.

(* whatever text is accepted: its value has the right size, prints as the
   lower-cased text, and that print parses back to the value *)
Theorem C32_parse_print_fixed : forall size s v, fixed_of_string size s = Ok v ->
  bytes v /\ length v = size /\ fixed_to_string v = map lower s /\
  fixed_of_string size (fixed_to_string v) = Ok v.
Proof. exact fixed_parse_sound. Qed.
Print Assumptions C32_parse_print_fixed.

Theorem C32_json_fixed : forall size bs, bytes bs -> length bs = size ->
  fixed_of_json size (fixed_to_json bs) = Ok bs.
Proof. exact fixed_json_roundtrip. Qed.
Print Assumptions C32_json_fixed.

Theorem C32_json_fixed_sound : forall size s v, fixed_of_json size s = Ok v ->
  fixed_of_json size (fixed_to_json v) = Ok v /\ fixed_of_string size (fixed_to_string v) = Ok v.
Proof. exact fixed_json_sound. Qed.
Print Assumptions C32_json_fixed_sound.

(* collective signature: 64 signature bytes and a 64-bit mask *)
Theorem C32_cosi_print_parse : forall sg m, bytes sg -> length sg = sig_size -> (m < 2 ^ 64)%N ->
  cosi_of_json (cosi_to_json (sg, m)) = Ok (sg, m).
Proof. exact cosi_json_roundtrip. Qed.
Print Assumptions C32_cosi_print_parse.

Theorem C32_cosi_parse_print : forall s sg m, cosi_of_json s = Ok (sg, m) ->
  bytes sg /\ length sg = sig_size /\ (m < 2 ^ 64)%N /\ cosi_of_json (cosi_to_json (sg, m)) = Ok (sg, m).
Proof. exact cosi_json_sound. Qed.
Print Assumptions C32_cosi_parse_print.

(* "prints back identically" is claimed for addresses only: an upper-case
   hexadecimal key text is accepted and prints back in lower case. *)
Theorem C32_hex_text_canonical_refuted : exists s v,
  fixed_of_string 1 s = Ok v /\ fixed_to_string v <> s.
Proof. exists [65; 66]%N, [171]%N. split; [reflexivity|discriminate]. Qed.
Print Assumptions C32_hex_text_canonical_refuted.

Example C32_ex_ghost :
  let hs := fun p i => (p * 7 + i + 3)%Z in
  pub 13 (derive_private 13 hs (pub 13 5) 6 9 4) = 5%Z /\ derive_public 13 hs 5 (pub 13 6) (pub 13 9) 4 = 5%Z
  /\ view 13 hs 5 6 (pub 13 5) 4 = 9%Z /\ derive_public 13 hs 5 (pub 13 6) (pub 13 9) 5 = 6%Z.
Proof. vm_compute. repeat split. Qed.
Example C32_ex_base58 :
  encode [0; 0; 1; 2]%N = [49; 49; 53; 84]%N /\ decode [49; 49; 53; 84]%N = [0; 0; 1; 2]%N
  /\ encode [] = [] /\ decode [49]%N = [0]%N /\ decode [48]%N = [] /\ over_alphabet [49; 49; 53; 84]%N.
Proof.
  repeat split; try (vm_compute; reflexivity).
  unfold over_alphabet. repeat (constructor; [vm_compute; tauto|]). constructor.
Qed.
Example C32_ex_address :
  let H := fun _ : list N => repeat 7%N 32 in
  let ck := fun _ : list N => true in
  let sp := repeat 1%N 32 in let vw := 0%N :: repeat 2%N 31 in
  of_string H ck (to_string H (sp, vw)) = Ok (sp, vw)
  /\ length (to_string H (sp, vw)) = 95%nat
  /\ of_string H ck (to_string H (sp, vw) ++ [49%N]) = Err.
Proof.
  (* the printed address occurs three times: it is evaluated once and the parses run on its value *)
  intros H ck sp vw. set (s := to_string H (sp, vw)).
  let v := eval vm_compute in s in assert (E : s = v) by (vm_compute; reflexivity).
  clearbody s. subst s. vm_compute. repeat split.
Qed.
Example C32_ex_text :
  fixed_of_string 2 [97; 66; 48; 49]%N = Ok [171; 1]%N /\ fixed_to_string [171; 1]%N = [97; 98; 48; 49]%N
  /\ fixed_of_json 1 [34; 102; 102; 34]%N = Ok [255]%N /\ fixed_of_json 1 [96; 102; 102; 96]%N = Ok [255]%N
  /\ fixed_of_json 1 [39; 102; 102; 39]%N = Err
  /\ cosi_of_json (cosi_to_json (repeat 90%N 64, 10%N)) = Ok (repeat 90%N 64, 10%N).
Proof. vm_compute. repeat split. Qed.
