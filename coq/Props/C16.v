(* C16 - transactions that validate together can always be finalized.
   The property theorems; the lemmas they rest on are in Proofs/KernelSnap.v,
   the executable model in Model/KernelSnap.v is run against the real node and
   store by harness/cmd/c16. *)
From Coq Require Import List ZArith NArith Bool Lia.
Require Import Mixin.Base.Res Mixin.Gen.Consts Mixin.Model.Fixed Mixin.Model.KernelSnap Mixin.Proofs.KernelSnap.
Import ListNotations.
Open Scope Z_scope.

(* The property as stated is FALSE of the faithful model (finding F5): two
   deposits of one asset, each within capacity against the recorded total,
   jointly above it: both validate, the batch passes the batch rules,
   finalization panics (writeTotalInAsset). *)
Theorem C16_refuted :
  exists s sn pool last s',
    (forall t, In t (map snd pool) ->
       exists amt, l_in t = LDeposit (match l_in t with LDeposit k _ _ => k | _ => 0%N end) 7%N amt /\
                   total_of s (l_asset t) + amt < capacity (l_asset t)) /\
    validate_batch s sn pool last = (s', true) /\
    write_snapshot s' sn = Panic.
Proof.
  exists w_state, w_snap, w_pool, w_last. eexists. split; [|split; vm_compute; reflexivity].
  intros t [<-|[<-|[]]]; eexists; split; reflexivity.
Qed.
Print Assumptions C16_refuted.

(* Second finding, found by this check: two custodian-signed deposits of one
   unrecorded asset id carrying different asset info both validate;
   finalization returns an error (writeAssetInfo), which TopoWrite turns into
   a panic. *)
Theorem C16_refuted_asset_info :
  exists s sn pool last s',
    validate_batch s sn pool last = (s', true) /\ write_snapshot s' sn = Err.
Proof. exists w_state, w_snap2, w_pool2, w_last. eexists. split; vm_compute; reflexivity. Qed.
Print Assumptions C16_refuted_asset_info.

(* Outside the two finding regions finalization of a validated batch succeeds.

   [s] is the state the snapshot is written on (after the members were
   validated, locked and stored), [ts] the members.  Hypotheses:
   - every member's body is stored (WriteTransaction);
   - the facts validation establishes, per member ([ready], see
     Proofs/KernelSnap.v): every output key
     bound to this transaction (LockGhostKeys in validateOutputs), output
     amounts positive and output types of the batchable classes and mint
     (validateOutputs, validateDeposit/Mint/WithdrawalSubmit/WithdrawalClaim,
     batch rule), at most SliceCountLimit outputs (Validate), a claim's
     reference stored and finalized (validateReferences), deposit/mint amount
     positive, asset info of a deposit unrecorded or equal to the recorded one
     (verifyDepositData, verifyAssetInfo), asset of any other member recorded
     (ledger invariant: its inputs exist);
   - not yet recorded for this node (validateSnapshotTransaction refuses a
     transaction finalized in another snapshot);
   - outside finding 2: deposits of one asset id in the batch agree on the info;
   - outside finding 1 (F5): for every asset, recorded total + the batch's
     deposits and mints <= capacity;
   - ledger invariants: totals are non-negative and the batch withdraws at most
     the recorded total (C17: supply = value of unspent outputs).

   Failure modes of WriteSnapshot's member finalization and what excludes each:
   1 storage/badger_graph.go "snapshot transaction not exist" / writeSnapshot
     nil transaction ............................ body stored (lockAndPersistTransaction)
   2 badger_graph.go "snapshot duplication" (UNIQUE key) .... not recorded for this node
   3 badger_transaction.go finalizeTransaction -> writeAssetInfo "invalid asset
     info" (badger_asset.go) ................. FINDING 2 region, else rd_info
   4 common/utxo.go UnspentOutputs panic(out.Type) ........... output types validated
   5 badger_utxo.go lockGhostKey "locked for transaction" ... keys bound at validation
   6 badger_transaction.go graphUtxoKey panic(index > 1024) . <= 256 outputs
   7 badger_transaction.go writeUTXO ver.References[0] / badger_withdrawal.go
     writeWithdrawalClaim panic ................... claim reference stored and finalized
   8 writeNodePledge/Cancel/Accept/Remove, writeCustodianNodes ... not batchable; alone they
     are membership/custodian operations outside this property's quantifier
     (the model refuses them: the theorem does not cover them)
   9 badger_asset.go writeTotalInAsset asset == nil panic ..... asset recorded (rd_info)
   10 badger_asset.go total.Sub panics (total < amount) ....... withdrawn <= recorded total
   11 badger_asset.go total.Add panics (amount <= 0) ....... amounts positive
   12 badger_asset.go total.Cmp(max) > 0 panic ................ FINDING 1 region (F5)
   Not about the members (the snapshot's round number, references, duplicate
   SNAPSHOT key, topology and work records): outside this model. *)
Theorem C16_outside : forall ts s sn,
  ls_txs sn = map l_hash ts ->
  (forall t, In t ts -> alookup (l_hash t) (st_bodies s) = Some t) ->
  (forall t, In t ts -> nmem (l_hash t) (st_uniq s) = false) ->
  (forall t, In t ts -> ready s t) ->
  infos_agree ts ->
  (forall a, 0 <= total_of s a) ->
  (forall a, total_of s a + sum_adds ts a <= capacity a) ->
  (forall a, sum_subs ts a <= total_of s a) ->
  exists s', write_snapshot s sn = Ok s'.
Proof.
  intros ts s sn Etx Hb Hu Hr Ha H0 Hc Hs. unfold write_snapshot. rewrite Etx.
  rewrite existsb_map_false by (intros t Ht; unfold amem; rewrite (Hb t Ht); reflexivity).
  rewrite existsb_map_false by exact Hu.
  apply c16_members_ok; try assumption. intros a. auto.
Qed.
Print Assumptions C16_outside.

(* Two deposits that fill the capacity exactly (327613 + 327614 = 750000 - 94773 XIN):
   the batch validates, the validated state is [ready] for both and within
   capacity, and the write succeeds.  [nv_hypotheses_hold] below derives the write
   from the theorem. *)
Definition nv_d1 := w_deposit 121 221 xin 7 (units 327613) 321.
Definition nv_d2 := w_deposit 122 222 xin 7 (units 327614) 322.
Definition nv_snap := {| ls_hash := 902%N; ls_txs := [121%N; 122%N] |}.
Definition nv_state := fst (validate_batch w_state nv_snap [(121%N, nv_d1); (122%N, nv_d2)] w_last).

Example nv_validated :
  validate_batch w_state nv_snap [(121%N, nv_d1); (122%N, nv_d2)] w_last = (nv_state, true).
Proof. vm_compute. reflexivity. Qed.

Example nv_ready : forall t, In t [nv_d1; nv_d2] -> ready nv_state t.
Proof.
  (* the five fields of [ready] for nv_d1 (goals 1-5) and nv_d2 (6-10), field by field *)
  intros t [<-|[<-|[]]]; constructor.
  1,6: intros k [<-|[]]; vm_compute; reflexivity.
  1,5: intros o [<-|[]]; split; [reflexivity|left; reflexivity].
  1,4: vm_compute; discriminate.
  1,3: intros (o & [<-|[]] & E); discriminate E.
  all: split; [reflexivity|right; vm_compute; reflexivity].
Qed.

Example nv_capacity : forall a, total_of nv_state a + sum_adds [nv_d1; nv_d2] a <= capacity a.
Proof.
  intros a. unfold sum_adds, adds. cbn [fold_right l_asset l_in nv_d1 nv_d2 w_deposit].
  destruct (xin =? a)%N eqn:E.
  - apply N.eqb_eq in E. subst a. vm_compute. discriminate.
  - assert (total_of nv_state a = 0) as ->.
    { unfold total_of. change (st_totals nv_state) with [(xin, units 94773)]. cbn [alookup].
      rewrite N.eqb_sym, E. reflexivity. }
    (* a <> xin and nothing recorded for a: every constant of [capacity] is >= 0 *)
    unfold capacity. repeat match goal with |- context [if ?c then _ else _] => destruct c end;
      vm_compute; discriminate.
Qed.

Example nv_write_ok : is_ok (write_snapshot nv_state nv_snap) = true.
Proof. vm_compute. reflexivity. Qed.

(* Each fact C16_outside consumes is derived from an accepting
   validate_batch (Proofs/KernelSnap.v): body stored under its hash
   (persist_tx_spec), every output key bound to the member (bind_ghosts_spec),
   output amounts positive and output types script / submit / claim
   (type_specific_inv, outputs_shape_pos), at most SliceCountLimit outputs
   (validate_tx_true), a claim's reference stored and finalized (refs_ok_in),
   deposit/mint amount positive and asset info unrecorded-or-equal / asset
   recorded (validate_tx_ready), not yet recorded for this node.  They are
   stable under the later members' validation (ready_vmono).  Left as
   hypotheses are exactly:
   - the capacity sum: validation cannot establish it (it reads only the
     recorded total, one member at a time): recorded finding 1 (F5);
   - deposits of one asset id agree on the asset info: validation compares only
     with the recorded info: recorded finding 2;
   - withdrawals within the recorded total: not checked by validation; follows
     from the supply invariant (C17) since members spend distinct unspent outputs;
   and well-formedness: ledger invariants of the state ([ledger_inv]: XIN
   recorded, every unspent output's asset recorded, totals non-negative,
   UNIQUE records only for stored bodies), the cache keyed by payload hash, no
   duplicate member (the snapshot encoder refuses one).
   PARTIAL in one respect: the members are not stored yet when the snapshot is
   validated.  A member already stored by an earlier refused snapshot is taken
   as is by validateSnapshotTransaction (not validated again): its facts come
   from that earlier validation and are not derived here (its capacity and
   asset info checks are stale, which the two recorded findings already cover;
   the harness corpus has both cases). *)
Theorem C16_validated_then_finalizes_partial : forall s sn pool last s',
  ledger_inv s -> pool_keyed pool -> NoDup (ls_txs sn) ->
  (forall h, In h (ls_txs sn) -> alookup h (st_bodies s) = None) ->
  validate_batch s sn pool last = (s', true) ->
  let ts := batch_txs pool (ls_txs sn) in
  (forall a, total_of s a + sum_adds ts a <= capacity a) ->
  infos_agree ts ->
  (forall a, sum_subs ts a <= total_of s a) ->
  exists s'', write_snapshot s' sn = Ok s''.
Proof.
  intros s sn pool last s' LI PK ND Fr Hv ts Hcap Hagree Hsub. unfold validate_batch in Hv.
  destruct (validate_loop_ready _ _ _ _ _ _ _ Hv (li_v _ LI) PK ND Fr) as (M & Emap & Hall).
  assert (T : forall a, total_of s' a = total_of s a) by (intros a; exact (total_of_vmono _ _ a M)).
  apply (C16_outside ts s' sn).
  - symmetry. exact Emap.
  - intros t Ht. apply (Hall t Ht).
  - intros t Ht. destruct M as (_ & _ & _ & _ & _ & ->).
    destruct (nmem (l_hash t) (st_uniq s)) eqn:E; [|reflexivity].
    apply (li_uniq _ LI), amem_iff in E. destruct E as [v E].
    rewrite Fr in E; [discriminate E|]. rewrite <- Emap. apply in_map, Ht.
  - intros t Ht. apply (Hall t Ht).
  - exact Hagree.
  - intros a. rewrite T. apply (li_totals _ LI).
  - intros a. rewrite T. apply Hcap.
  - intros a. rewrite T. apply Hsub.
Qed.
Print Assumptions C16_validated_then_finalizes_partial.

(* the facts themselves, for every member of an accepted batch *)
Theorem C16_validation_establishes_facts : forall s sn pool last s',
  ledger_inv s -> pool_keyed pool -> NoDup (ls_txs sn) ->
  (forall h, In h (ls_txs sn) -> alookup h (st_bodies s) = None) ->
  validate_batch s sn pool last = (s', true) ->
  map l_hash (batch_txs pool (ls_txs sn)) = ls_txs sn /\
  forall t, In t (batch_txs pool (ls_txs sn)) ->
    alookup (l_hash t) (st_bodies s') = Some t /\ ready s' t.
Proof.
  intros s sn pool last s' LI PK ND Fr Hv. unfold validate_batch in Hv.
  destruct (validate_loop_ready _ _ _ _ _ _ _ Hv (li_v _ LI) PK ND Fr) as (_ & E & H).
  split; assumption.
Qed.
Print Assumptions C16_validation_establishes_facts.

(* non-vacuity: the genesis state and the two deposits that fill the capacity
   exactly satisfy every hypothesis *)
Definition nv_pool := [(121%N, nv_d1); (122%N, nv_d2)].

Example nv_ledger_inv : ledger_inv w_state.
Proof.
  constructor.
  - constructor; [vm_compute; discriminate|]. intros h i u H. vm_compute in H. discriminate H.
  - intros a. unfold total_of. change (st_totals w_state) with [(xin, units 94773)]. cbn [alookup].
    destruct (a =? xin)%N; [vm_compute; discriminate|lia].
  - intros h H. vm_compute in H. discriminate H.
Qed.

Example nv_hypotheses_hold :
  exists s'', write_snapshot nv_state nv_snap = Ok s''.
Proof.
  apply (C16_validated_then_finalizes_partial w_state nv_snap nv_pool w_last nv_state).
  - exact nv_ledger_inv.
  - intros h t H. unfold nv_pool in H. cbn [alookup] in H.
    destruct (h =? 121)%N eqn:E1; [injection H as <-; apply N.eqb_eq in E1; subst h; reflexivity|].
    destruct (h =? 122)%N eqn:E2; [injection H as <-; apply N.eqb_eq in E2; subst h; reflexivity|discriminate].
  - repeat constructor; cbn; intuition discriminate.
  - intros h _. reflexivity.
  - exact nv_validated.
  - exact nv_capacity.
  - change (batch_txs nv_pool (ls_txs nv_snap)) with [nv_d1; nv_d2].
    intros t1 t2 i1 i2 [<-|[<-|[]]] [<-|[<-|[]]] _ E1 E2; cbn in E1, E2; congruence.
  - intros a. change (batch_txs nv_pool (ls_txs nv_snap)) with [nv_d1; nv_d2].
    unfold sum_subs, subs. cbn [fold_right l_asset l_in nv_d1 nv_d2 w_deposit].
    pose proof (li_totals _ nv_ledger_inv a). destruct (xin =? a)%N; lia.
Qed.
