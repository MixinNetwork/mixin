(* C02 - spending requires threshold signatures over the payload hash.
   Property theorems, then non-vacuity examples.  Model/Threshold.v is the executable model of the
   authorization step of common/validation.go (validateInputs after the store
   lookups, validateUTXO, Script.Validate, validateAggregatedSigners, the control
   flow of BatchVerify / AggregateVerify); Model/SchnorrAlg.v is the Schnorr
   equation and the batch equation in Z_l.  Both are run against the real code
   by harness/cmd/c02 on every check.

   Reading guide.  A key is (pointer identity, value): keySigs in the Go code is
   a map keyed by key POINTER.  [ver k s] is Key.Verify(payload hash, s) for the
   key value k; [bat] is the random-linear-combination batch verifier; [aggv] the
   weighted-key aggregate check.  The hypothesis on key pointers
   ([NoDup (map kptr (all_keys us))]) is what the store provides: every UTXO read
   decodes fresh key objects.  Key VALUES may repeat across inputs.  The
   hypothesis on [sigs] is the Go map invariant (one entry per index). *)
From Coq Require Import List ZArith NArith Bool Lia Znumtheory.
Require Import Mixin.Base.Res Mixin.Gen.Consts.
Require Import Mixin.Model.Threshold Mixin.Model.SchnorrAlg.
Require Import Mixin.Proofs.Group Mixin.Proofs.Threshold Mixin.Proofs.SchnorrAlg.
Import ListNotations.
Open Scope Z_scope.

(* Accepted with signature maps: every script-type input i has a map whose
   indexes address its OWN key list, are pairwise distinct and at least
   threshold many; and when the threshold is positive each (keys_i[j], sig_j)
   verifies over the payload hash.  The first hypothesis is the soundness of
   the batch verifier, whose exact algebraic content is C02_batch_agrees_sound. *)
Theorem C02_threshold_map :
  forall (S : Type) (ver : N -> S -> bool) (bat : list (N * S) -> bool) (aggv : S -> list (Z * N) -> bool)
         (us : list utxo) (sigs : list (sigmap S)) (txType : Z) (hash : N) (fork : bool),
    (forall E, bat E = true -> forall k s, In (k, s) E -> ver k s = true) ->
    NoDup (map kptr (all_keys us)) ->
    Forall (fun m => NoDup (map fst m)) sigs ->
    validate_inputs ver bat aggv us sigs None txType hash fork = Ok tt ->
    forall i u, nth_error us i = Some u -> is_script_type (utype u) = true ->
    exists m t,
      nth_error sigs i = Some m /\ script_threshold (uscript u) = Some t /\
      0 <= t <= Consts.ThrOperator64 /\
      (forall j os, In (j, os) m -> Z.of_N j < len (ukeys u)) /\
      NoDup (map fst m) /\
      t <= len m /\
      (0 < t -> forall j os, In (j, os) m ->
         exists k s, nth_error (ukeys u) (N.to_nat j) = Some k /\ os = Some s /\ ver (kval k) s = true).
Proof.
  intros S ver bat aggv us sigs txType hash fork Hb Hnd Hwf H i u Hu Hs.
  destruct (validate_inputs_map _ _ _ _ _ _ _ _ _ Hnd Hwf H) as (ksf & Hf & Hv).
  destruct (Hf i u Hu Hs) as (m & Hm & Hsv & Hc).
  destruct (script_validate_spec _ _ Hsv) as (t & Ht & Hr & Hle & _).
  exists m, t. do 3 (split; [assumption|]). split; [intros j os Hj; apply (Hc _ _ Hj)|].
  split; [rewrite Forall_forall in Hwf; apply Hwf; eapply nth_error_In; exact Hm|]. split; [exact Hle|].
  intros _ j os Hj. destruct (Hc j os Hj) as (_ & k & Hk & Hi).
  destruct Hv as [_ Hbv]; [intros ->; destruct Hi|].
  destruct (batch_verify_each _ _ _ _ Hb Hbv _ _ (in_ks_entries _ _ _ _ Hi)) as (s & Hos & Hvs).
  exists k, s. repeat split; assumption.
Qed.
Print Assumptions C02_threshold_map.

(* Without any assumption on the batch verifier: what BatchVerify is called on
   contains every map entry of every script input, paired with the input's own
   key at that index, and that call returned true. *)
Theorem C02_threshold_map_batch_call :
  forall (S : Type) (ver : N -> S -> bool) (bat : list (N * S) -> bool) (aggv : S -> list (Z * N) -> bool)
         (us : list utxo) (sigs : list (sigmap S)) (txType : Z) (hash : N) (fork : bool),
    NoDup (map kptr (all_keys us)) ->
    Forall (fun m => NoDup (map fst m)) sigs ->
    validate_inputs ver bat aggv us sigs None txType hash fork = Ok tt ->
    exists ents : keysigs S,
      (forall i u m j os, nth_error us i = Some u -> is_script_type (utype u) = true ->
         nth_error sigs i = Some m -> In (j, os) m ->
         exists k, nth_error (ukeys u) (N.to_nat j) = Some k /\ In (kval k, os) (ks_entries ents)) /\
      (ents <> [] -> (length us <= length ents)%nat /\ Threshold.batch_verify ver bat (ks_entries ents) = true).
Proof.
  intros S ver bat aggv us sigs txType hash fork Hnd Hwf H.
  destruct (validate_inputs_map _ _ _ _ _ _ _ _ _ Hnd Hwf H) as (ents & Hf & Hv). exists ents. split; [|exact Hv].
  intros i u m j os Hu Hs Hm Hj. destruct (Hf i u Hu Hs) as (m' & Hm' & _ & Hc).
  rewrite Hm in Hm'. injection Hm' as <-.
  destruct (Hc j os Hj) as (_ & k & Hk & Hi). exists k. split; [exact Hk | apply in_ks_entries; exact Hi].
Qed.
Print Assumptions C02_threshold_map_batch_call.

(* What the pointer-keyed map implies: if two UTXOs handed to validateInputs
   share a key POINTER, the later input's signature overwrites the earlier one
   and the earlier input is accepted although its own (key, signature) pair does
   not verify.  The statement of C02_threshold_map without the pointer
   hypothesis is therefore false of the faithful model.  (No store of the
   repository produces shared pointers: storage/badger_utxo.go decodes every
   UTXO afresh; the harness replays this witness on the real validateInputs with
   an in-memory store that shares the pointer deliberately.) *)
Theorem C02_threshold_map_shared_pointer_refuted :
  exists (ver : N -> N -> bool) (us : list utxo) (sigs : list (sigmap N)),
    Forall (fun m => NoDup (map fst m)) sigs /\
    validate_inputs ver (forallb (fun e => ver (fst e) (snd e))) (fun _ _ => false) us sigs None 0 7 false = Ok tt /\
    exists u k s,
      nth_error us 0 = Some u /\ is_script_type (utype u) = true /\
      script_threshold (uscript u) = Some 1 /\
      nth_error sigs 0 = Some [(0%N, Some s)] /\
      nth_error (ukeys u) 0 = Some k /\ ver (kval k) s = false.
Proof.
  exists (fun k s => ((k =? 1) && (s =? 2)) || ((k =? 2) && (s =? 3)))%N.
  exists [mkUtxo 0 [mkKey 100 1] [255; 254; 1]%N 0;
          mkUtxo 0 [mkKey 100 1; mkKey 101 2] [255; 254; 2]%N 0].
  exists [[(0, Some 1)]; [(0, Some 2); (1, Some 3)]]%N.
  split.
  - repeat constructor; cbn; intuition discriminate.
  - split; [vm_compute; reflexivity|].
    exists (mkUtxo 0 [mkKey 100 1] [255; 254; 1]%N 0), (mkKey 100 1), 1%N.
    vm_compute. repeat split.
Qed.
Print Assumptions C02_threshold_map_shared_pointer_refuted.

(* Accepted with an aggregate signature: the signer list is non-negative and
   strictly increasing; for every script-type input i the number of signers
   falling in its own window [off_i, off_i + len_i) of the concatenated key list
   reaches its threshold; when that threshold is positive every signer is below
   the total number of keys and the aggregate predicate holds for exactly the
   signer list, each signer paired with the key value at that position of the
   concatenated key list.  No pointer hypothesis is needed here. *)
Theorem C02_threshold_aggregate :
  forall (S : Type) (ver : N -> S -> bool) (bat : list (N * S) -> bool) (aggv : S -> list (Z * N) -> bool)
         (us : list utxo) (sigs : list (sigmap S)) (sg : S) (signers : list Z) (txType : Z) (hash : N) (fork : bool),
    validate_inputs ver bat aggv us sigs (Some (sg, signers)) txType hash fork = Ok tt ->
    forall i u, nth_error us i = Some u -> is_script_type (utype u) = true ->
    exists t,
      script_threshold (uscript u) = Some t /\ 0 <= t <= Consts.ThrOperator64 /\
      increasing_from (-1) signers /\
      t <= count_in_window signers (offset_of us i) (offset_of us i + len (ukeys u)) /\
      (0 < t ->
         Forall (fun s => 0 <= s < len (all_keys us)) signers /\
         exists sel, aggv sg sel = true /\ map fst sel = signers /\
                     Forall (fun e => nth_error (map kval (all_keys us)) (Z.to_nat (fst e)) = Some (snd e)) sel).
Proof.
  intros S ver bat aggv us sigs sg signers txType hash fork H i u Hu Hs.
  apply validate_inputs_agg in H. destruct H as (ksf & Hf & Hv).
  destruct (Hf i u Hu Hs) as (Hva & Hsv & Hne).
  destruct (script_validate_spec _ _ Hsv) as (t & Ht & Hr & Hle & _).
  apply andb_true_iff, proj2, signers_ordered_increasing in Hva.
  exists t. do 4 (split; [assumption|]). intros Hpos.
  (* a positive count means the loop collected a key, so the verifier ran *)
  apply aggregate_verify_ok in Hv; [|intros ->; cbn in Hne; lia].
  unfold len in Hv. rewrite map_length in Hv. exact Hv.
Qed.
Print Assumptions C02_threshold_aggregate.

(* The windows of consecutive inputs do not overlap: a signer is counted for
   exactly one input. *)
Theorem C02_windows_partition : forall signers lo mid hi, lo <= mid <= hi ->
  count_in_window signers lo hi = count_in_window signers lo mid + count_in_window signers mid hi.
Proof. exact count_split. Qed.
Print Assumptions C02_windows_partition.

(* If (after a change of the payload, hence of the payload hash, or of signature
   bytes) no supplied signature of some script input with a positive threshold
   verifies for the input's own key, the transaction is not accepted. *)
Theorem C02_tampered_map_rejected :
  forall (S : Type) (ver : N -> S -> bool) (bat : list (N * S) -> bool) (aggv : S -> list (Z * N) -> bool)
         (us : list utxo) (sigs : list (sigmap S)) (txType : Z) (hash : N) (fork : bool) i u m t,
    (forall E, bat E = true -> forall k s, In (k, s) E -> ver k s = true) ->
    NoDup (map kptr (all_keys us)) ->
    Forall (fun m => NoDup (map fst m)) sigs ->
    nth_error us i = Some u -> is_script_type (utype u) = true ->
    script_threshold (uscript u) = Some t -> 0 < t ->
    nth_error sigs i = Some m ->
    (exists j os, In (j, os) m /\
       forall k s, nth_error (ukeys u) (N.to_nat j) = Some k -> os = Some s -> ver (kval k) s = false) ->
    validate_inputs ver bat aggv us sigs None txType hash fork <> Ok tt.
Proof.
  intros S ver bat aggv us sigs txType hash fork i u m t Hb Hnd Hwf Hu Hs Ht Hpos Hm [j [os [Hj Hbad]]] H.
  destruct (C02_threshold_map S ver bat aggv us sigs txType hash fork Hb Hnd Hwf H i u Hu Hs)
    as (m' & t' & H1 & H2 & _ & _ & _ & _ & H7).
  rewrite Hm in H1. injection H1 as <-. rewrite Ht in H2. injection H2 as <-.
  destruct (H7 Hpos j os Hj) as (k & s & Hk & Hos & Hv).
  rewrite (Hbad k s Hk Hos) in Hv. discriminate.
Qed.
Print Assumptions C02_tampered_map_rejected.

(* The same under an aggregate signature: if the aggregate predicate fails for
   every selection over the signer list, a transaction with a script input of
   positive threshold is not accepted. *)
Theorem C02_tampered_aggregate_rejected :
  forall (S : Type) (ver : N -> S -> bool) (bat : list (N * S) -> bool) (aggv : S -> list (Z * N) -> bool)
         (us : list utxo) (sigs : list (sigmap S)) (sg : S) (signers : list Z) (txType : Z) (hash : N) (fork : bool) i u t,
    nth_error us i = Some u -> is_script_type (utype u) = true ->
    script_threshold (uscript u) = Some t -> 0 < t ->
    (forall sel, map fst sel = signers -> aggv sg sel = false) ->
    validate_inputs ver bat aggv us sigs (Some (sg, signers)) txType hash fork <> Ok tt.
Proof.
  intros S ver bat aggv us sigs sg signers txType hash fork i u t Hu Hs Ht Hpos Hbad H.
  destruct (C02_threshold_aggregate S ver bat aggv us sigs sg signers txType hash fork H i u Hu Hs)
    as (t' & H1 & _ & _ & _ & H5).
  rewrite Ht in H1. injection H1 as <-.
  destruct (H5 Hpos) as (_ & sel & Hv & Hm & _). rewrite (Hbad sel Hm) in Hv. discriminate.
Qed.
Print Assumptions C02_tampered_aggregate_rejected.

(* all individual equations hold => the batch equation holds for EVERY
   coefficient vector *)
Theorem C02_batch_agrees_complete : forall l es zs, 0 < l -> es <> [] ->
  Forall (fun e => entry_ok l e = true) es -> SchnorrAlg.batch_verify l zs es = true.
Proof.
  intros l es zs Hl Hne HF. unfold SchnorrAlg.batch_verify.
  destruct es as [|e [|e' es']]; [congruence | inversion HF; assumption | apply batch_check_complete; assumption].
Qed.
Print Assumptions C02_batch_agrees_complete.

(* some equation fails => for every choice of the other coefficients at most
   one value (mod l) of that entry's coefficient passes: the exact algebraic
   content of "agrees except with probability 2^-128" *)
Theorem C02_batch_agrees_sound : forall l pre e post zpre zpost z z',
  prime l -> l <> 2 ->
  length zpre = length pre ->
  entry_ok l e = false ->
  SchnorrAlg.batch_verify l (zpre ++ z :: zpost) (pre ++ e :: post) = true ->
  SchnorrAlg.batch_verify l (zpre ++ z' :: zpost) (pre ++ e :: post) = true ->
  z mod l = z' mod l.
Proof.
  intros l pre e post zpre zpost z z' Hp H2 Hlen Hbad B1 B2. unfold SchnorrAlg.batch_verify in B1, B2.
  destruct (pre ++ e :: post) as [|e0 [|e1 rest]] eqn:E; [discriminate | |].
  - destruct pre as [|p [|p' pre']]; [|discriminate E|discriminate E]. injection E as <-. congruence.
  - rewrite <- E in B1, B2. eapply batch_check_sound; eassumption.
Qed.
Print Assumptions C02_batch_agrees_sound.

(* one bad entry among valid ones: the batch of two or more fails for every
   coefficient that is not 0 mod l *)
Theorem C02_batch_one_bad : forall l pre e post zpre zpost z,
  prime l -> l <> 2 -> length zpre = length pre ->
  Forall (fun x => entry_ok l x = true) pre -> Forall (fun x => entry_ok l x = true) post ->
  entry_ok l e = false -> z mod l <> 0 ->
  batch_check l (zpre ++ z :: zpost) (pre ++ e :: post) = false.
Proof.
  intros l pre e post zpre zpost z Hp H2 Hlen Fpre Fpost Hbad Hz.
  assert (Hl : 0 < l) by (pose proof (prime_ge_2 _ Hp); lia).
  apply not_true_is_false. intros B. apply Hz.
  rewrite (batch_check_sound l pre e post zpre zpost z 0 Hp H2 Hlen Hbad B); [apply Z.mod_0_l; lia|].
  apply batch_check_spec. apply batch_check_spec in B.
  split; [apply B|]. rewrite lin_app, lin_cons by assumption.
  rewrite (lin_valid l pre Fpre), (lin_valid l post Fpost). cg_ring.
Qed.
Print Assumptions C02_batch_one_bad.

(* With R, A, m fixed exactly one s in [0, l) verifies (any change of the 32
   response bytes is refused, a non-canonical s included). *)
Theorem C02_sig_byte_binding_response : forall l (H : Z -> Z -> Z -> Z) a m r, 0 < l ->
  verify l H a m r ((r + H r a m * a) mod l) = true /\
  forall s, verify l H a m r s = true -> s = (r + H r a m * a) mod l.
Proof. intros l H a m r Hl. exact (verify_ch_unique_s l (H r a m) a r Hl). Qed.
Print Assumptions C02_sig_byte_binding_response.

(* Changing R, A or m changes the input (r, a, m) of the challenge hash.  For
   any transcript (r', a', m') and response s' there is at most one challenge
   value k (mod l) satisfying the equation, so acceptance of the changed
   transcript requires the hash to hit that one scalar. *)
Theorem C02_sig_byte_binding_challenge : forall l (H : Z -> Z -> Z -> Z) a' m' r' s' k,
  prime l -> a' mod l <> 0 ->
  verify_ch l k a' r' s' = true ->
  (verify l H a' m' r' s' = true <-> H r' a' m' mod l = k mod l).
Proof.
  intros l H a' m' r' s' k Hp Ha Hk. unfold verify.
  pose proof (accepting_challenge_determined l a' r' s' k Hp Ha Hk (H r' a' m')) as E.
  apply verify_ch_spec in Hk. tauto.
Qed.
Print Assumptions C02_sig_byte_binding_challenge.

(* The fact behind it, over the bare equation: two challenges accepted with
   the same (A, R, s) agree mod l. *)
Theorem C02_unique_accepting_challenge : forall l a r s k k',
  prime l -> a mod l <> 0 ->
  verify_ch l k a r s = true -> verify_ch l k' a r s = true -> k mod l = k' mod l.
Proof. exact unique_accepting_challenge. Qed.
Print Assumptions C02_unique_accepting_challenge.

(* validateInputs uses the lock state in one way only: an input locked for ANOTHER
   payload hash refuses the transaction unless fork.  Being locked already - for this
   very payload hash, by an earlier validation of the same payload - buys nothing: the
   decision is the one for the same outputs with every lock cleared, so all theorems
   above (stated for arbitrary lock states) apply to a re-validated payload whose
   signatures differ. *)
Theorem C02_lock_gate :
  forall (S : Type) (ver : N -> S -> bool) (bat : list (N * S) -> bool) (aggv : S -> list (Z * N) -> bool)
         (us : list utxo) (sigs : list (sigmap S)) ag (txType : Z) (hash : N) (fork : bool),
    validate_inputs ver bat aggv us sigs ag txType hash fork = Ok tt ->
    Forall (fun u => ulock u = 0%N \/ ulock u = hash \/ fork = true) us.
Proof.
  intros S ver bat aggv us sigs ag txType hash fork H.
  apply validate_inputs_ok in H. destruct H as (ksf & Hl & _). apply vi_loop_keys, proj2 in Hl.
  eapply Forall_impl; [|exact Hl].
  intros u Hb. unfold lock_blocks in Hb.
  destruct (N.eqb_spec (ulock u) 0) as [E0|E0]; [left; exact E0|].
  destruct (N.eqb_spec (ulock u) hash) as [E1|E1]; [right; left; exact E1|].
  destruct fork; [right; right; reflexivity | discriminate].
Qed.
Print Assumptions C02_lock_gate.

(* When no input is blocked, the decision is the one for the same outputs with
   every lock cleared. *)
Theorem C02_lock_state_irrelevant :
  forall (S : Type) (ver : N -> S -> bool) (bat : list (N * S) -> bool) (aggv : S -> list (Z * N) -> bool)
         (us : list utxo) (sigs : list (sigmap S)) ag (txType : Z) (hash : N) (fork : bool),
    Forall (fun u => lock_blocks u hash fork = false) us ->
    validate_inputs ver bat aggv us sigs ag txType hash fork =
    validate_inputs ver bat aggv (map unlocked us) sigs ag txType hash fork.
Proof.
  intros S ver bat aggv us sigs ag txType hash fork HF. unfold validate_inputs.
  rewrite (vi_loop_lock_irrelevant _ us 0 sigs (option_map snd ag) txType hash fork [] [] HF), map_length.
  reflexivity.
Qed.
Print Assumptions C02_lock_state_irrelevant.

(* Script.Validate is the comparison of the count with the threshold byte of a
   well-formed script. *)
Theorem C02_script_validate : forall s sum,
  (script_validate s sum = true ->
     exists t, script_threshold s = Some t /\ 0 <= t <= Consts.ThrOperator64 /\ t <= sum /\
               s = [Z.to_N Consts.ThrOperatorCmp; Z.to_N Consts.ThrOperatorSum; Z.to_N t]) /\
  (forall t, script_threshold s = Some t -> t <= sum -> script_validate s sum = true).
Proof. intros s sum. split; [apply script_validate_spec | intros t; apply script_validate_complete]. Qed.
Print Assumptions C02_script_validate.

Definition ex_ver (k s : N) : bool := (s =? k + 10)%N.            (* signature k+10 is the valid one for key k *)
Definition ex_bat := forallb (fun e : N * N => ex_ver (fst e) (snd e)).
Definition ex_aggv (sg : N) (sel : list (Z * N)) : bool := (sg =? 77)%N.

(* two script inputs (thresholds 2 and 1), the key VALUE 1 appears in both at
   distinct pointers; accepted; the hypotheses of C02_threshold_map hold *)
Definition ex_us : list utxo :=
  [mkUtxo 0 [mkKey 1 1; mkKey 2 2; mkKey 3 3] [255; 254; 2]%N 0;
   mkUtxo 0 [mkKey 4 1; mkKey 5 4] [255; 254; 1]%N 0].
Definition ex_sigs : list (sigmap N) := [[(2, Some 13); (0, Some 11)]; [(0, Some 11)]]%N.

Example C02_ex_map_accepts :
  validate_inputs ex_ver ex_bat ex_aggv ex_us ex_sigs None 0 7 false = Ok tt /\
  NoDup (map kptr (all_keys ex_us)) /\ Forall (fun m => NoDup (map fst m)) ex_sigs /\
  (forall E, ex_bat E = true -> forall k s, In (k, s) E -> ex_ver k s = true).
Proof.
  split; [vm_compute; reflexivity|]. split; [|split].
  - vm_compute. repeat constructor; cbn; intuition discriminate.
  - repeat constructor; cbn; intuition discriminate.
  - intros E HE k s Hin. unfold ex_bat in HE. rewrite forallb_forall in HE. exact (HE (k, s) Hin).
Qed.

(* one signature short, a forged signature, an index equal to the key count, the
   shared key signed for one input only: refused *)
Example C02_ex_map_rejects :
  validate_inputs ex_ver ex_bat ex_aggv ex_us [[(0, Some 11)]; [(0, Some 11)]]%N None 0 7 false = Err /\
  validate_inputs ex_ver ex_bat ex_aggv ex_us [[(2, Some 13); (0, Some 12)]; [(0, Some 11)]]%N None 0 7 false = Err /\
  validate_inputs ex_ver ex_bat ex_aggv ex_us [[(3, Some 13); (0, Some 11)]; [(0, Some 11)]]%N None 0 7 false = Err /\
  validate_inputs ex_ver ex_bat ex_aggv ex_us [[(2, Some 13); (0, Some 11)]; []]%N None 0 7 false = Err.
Proof. vm_compute. repeat split. Qed.

(* aggregate: signers 0,2 for input 0 (window [0,3)) and 4 for input 1 (window [3,5)) *)
Example C02_ex_aggregate :
  validate_inputs ex_ver ex_bat ex_aggv ex_us [] (Some (77%N, [0; 2; 4])) 0 7 false = Ok tt /\
  validate_inputs ex_ver ex_bat ex_aggv ex_us [] (Some (77%N, [0; 3; 4])) 0 7 false = Err /\   (* 3 belongs to input 1 *)
  validate_inputs ex_ver ex_bat ex_aggv ex_us [] (Some (77%N, [0; 2; 5])) 0 7 false = Err /\   (* 5 is out of range *)
  validate_inputs ex_ver ex_bat ex_aggv ex_us [] (Some (77%N, [2; 0; 4])) 0 7 false = Err /\   (* unsorted *)
  validate_inputs ex_ver ex_bat ex_aggv ex_us [] (Some (78%N, [0; 2; 4])) 0 7 false = Err /\   (* invalid aggregate *)
  count_in_window [0; 2; 4] (offset_of ex_us 1) (offset_of ex_us 1 + 2) = 1.
Proof. vm_compute. repeat split. Qed.

(* every input already locked for this payload hash (7): a forged signature is still refused, the
   genuine ones still accepted; an input locked for another hash refuses unless fork *)
Definition ex_locked (h : N) : list utxo := map (fun u => mkUtxo (utype u) (ukeys u) (uscript u) h) ex_us.
Example C02_ex_locked :
  validate_inputs ex_ver ex_bat ex_aggv (ex_locked 7) ex_sigs None 0 7 false = Ok tt /\
  validate_inputs ex_ver ex_bat ex_aggv (ex_locked 7) [[(2, Some 13); (0, Some 12)]; [(0, Some 11)]]%N None 0 7 false = Err /\
  validate_inputs ex_ver ex_bat ex_aggv (ex_locked 7) [[(0, Some 11)]]%N None 0 7 false = Err /\
  validate_inputs ex_ver ex_bat ex_aggv (ex_locked 7) [] (Some (78%N, [0; 2; 4])) 0 7 false = Err /\
  validate_inputs ex_ver ex_bat ex_aggv (ex_locked 9) ex_sigs None 0 7 false = Err /\
  validate_inputs ex_ver ex_bat ex_aggv (ex_locked 9) ex_sigs None 0 7 true = Ok tt /\
  validate_inputs ex_ver ex_bat ex_aggv (ex_locked 9) [[(2, Some 13); (0, Some 12)]; [(0, Some 11)]]%N None 0 7 true = Err.
Proof. vm_compute. repeat split. Qed.

(* the Schnorr algebra in Z_13 with a concrete challenge function *)
Definition ex_H (r a m : Z) : Z := (r + 2 * a + 3 * m) mod 13.

Lemma prime_13 : prime 13.
Proof.
  apply prime_intro; [lia|]. intros n Hn. apply Zgcd_1_rel_prime.
  assert (n = 1 \/ n = 2 \/ n = 3 \/ n = 4 \/ n = 5 \/ n = 6 \/ n = 7 \/ n = 8 \/ n = 9 \/ n = 10 \/ n = 11 \/ n = 12) as Hc by lia.
  repeat (destruct Hc as [Hc|Hc]; [subst; reflexivity|]). subst; reflexivity.
Qed.

Example C02_ex_schnorr :
  prime 13 /\ 13 <> 2 /\
  (* key a=5, nonce r=7, message 4: k = (7+10+12) mod 13 = 3, s = 7 + 3*5 = 22 mod 13 = 9 *)
  verify 13 ex_H 5 4 7 9 = true /\ verify 13 ex_H 5 4 7 10 = false /\ verify 13 ex_H 5 4 7 22 = false /\
  verify 13 ex_H 5 6 7 9 = false /\
  (* a batch of two valid entries passes for all coefficients; with the second entry
     broken it passes only for the coefficient 0 (mod 13) of that entry *)
  SchnorrAlg.batch_verify 13 [3; 8] [(5, 7, 9, 3); (2, 1, 9, 4)] = true /\
  entry_ok 13 (2, 1, 10, 4) = false /\
  SchnorrAlg.batch_verify 13 [3; 8] [(5, 7, 9, 3); (2, 1, 10, 4)] = false /\
  SchnorrAlg.batch_verify 13 [3; 13] [(5, 7, 9, 3); (2, 1, 10, 4)] = true.
Proof. split; [exact prime_13|]. vm_compute. repeat split; discriminate. Qed.
