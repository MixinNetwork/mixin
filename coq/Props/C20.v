(* C20 - round links only move forward and never point at their own chain;
   rejected transitions leave the state unchanged.  Property theorems, proved
   from the lemmas of Proofs/RoundLinks.v about the executable model
   Model/RoundLinks.v of kernel/graph.go (startNewRoundAndPersist,
   updateEmptyHeadRoundAndPersist, updateExternal, assignNewGraphRound) over
   storage/badger_round.go (StartNewRound, UpdateEmptyHeadRound, ROUND and LINK
   records), which harness/cmd/c20 runs against the real code on a Badger store.
   [H] is Blake3 as an abstract function; [sort]/[sort_ts] are any conforming
   sorting procedures; the clock/other-chain checks of the strict path are the
   boolean [sanity] (they can only reject).

   FINDING (recorded in known_findings.txt, reproduced by the harness corpus):
   ROUND/<node id> (a chain's HEAD record) and ROUND/<final hash> share one key
   space, and a reference whose external hash is a node id is accepted.  The
   statements that need "the external is a final round" therefore carry the
   hypothesis [honest] (the external reference is not a node id) - theorems
   named _outside - and are refuted without it (theorems named _refuted). *)
From Coq Require Import List ZArith NArith Bool Permutation Sorted.
Require Import Mixin.Base.Res Mixin.Model.RoundHash Mixin.Model.LiveRound Mixin.Model.RoundLinks
               Mixin.Proofs.RoundHash Mixin.Proofs.LiveRound Mixin.Proofs.RoundLinks.
Import ListNotations.
Open Scope N_scope.

(* An accepted round start (Ok dummy): the new head round has number = previous
   + 1 and the closed round is the previous head; the self reference is the hash
   asFinal computes for the closed round, which becomes the final round; the
   durable head record says the same and the closed round is stored under its
   hash (which was free).  The external reference e is a stored ROUND record,
   the LINK record towards its node becomes its number and did not decrease,
   no other LINK record changes; on the ordinary path (dummy = false) e is
   stored under the referenced hash, belongs to a DIFFERENT node, the LINK record
   equalled RoundLinks before and equals it after; on the finalized path with an
   unknown external (dummy = true) the previous external reference is kept and
   RoundLinks is untouched. *)
Theorem C20_step : forall (H : hin -> N) sort d c self ext ts finalized sanity d' c' dummy,
  start_new_round H sort d c self ext ts finalized sanity = (d', c', Ok dummy) ->
  let k := ch_cache c in
  let id := ch_id c in
  ch_id c' = id /\
  c_number (ch_cache c') = c_number k + 1 /\ f_number (ch_final c') = c_number k /\
  (exists start end_,
     as_final H sort (c_node k) (c_number k) (c_snaps k) = Ok (Some (start, end_, self)) /\
     ch_final c' = mk_fr id (c_number k) start end_ self) /\
  c_self (ch_cache c') = self /\ c_snaps (ch_cache c') = [] /\
  find_round id (d_rounds d') = Some (mk_rr id id (c_number k + 1) 0 self (c_ext (ch_cache c'))) /\
  (exists s, find_round id (d_rounds d) = Some s /\ r_number s = c_number k /\
             find_round self (d_rounds d) = None /\
             find_round self (d_rounds d') = Some (closed_rec self (f_start (ch_final c')) s)) /\
  exists e,
    find_round (c_ext (ch_cache c')) (d_rounds d) = Some e /\ r_hash e <> 0 /\
    dur_link d id (r_node e) <= r_number e /\ dur_link d' id (r_node e) = r_number e /\
    (forall n, n <> r_node e -> dur_link d' id n = dur_link d id n) /\
    (forall from n, from <> id -> dur_link d' from n = dur_link d from n) /\
    (dummy = false ->
       c_ext (ch_cache c') = ext /\ r_hash e = ext /\ r_node e <> id /\
       dur_link d id (r_node e) = get_link (r_node e) (ch_links c) /\
       get_link (r_node e) (ch_links c') = r_number e /\
       (forall n, n <> r_node e -> get_link n (ch_links c') = get_link n (ch_links c))) /\
    (dummy = true ->
       finalized = true /\ find_round ext (d_rounds d) = None /\
       c_ext (ch_cache c') = c_ext k /\ ch_links c' = ch_links c).
Proof.
  intros H sort d c self ext ts finalized sanity d' c' dummy Hs. cbv zeta.
  apply start_cases in Hs as (start & end_ & s & e & Hef). pose proof (se_stored Hef) as St.
  rewrite (se_chain Hef), (ss_written St).
  cbn [ch_id ch_cache ch_final ch_links c_number c_self c_ext c_snaps f_number f_start].
  set (ext' := if dummy then c_ext (ch_cache c) else ext) in *.
  (* the closed round is a new ROUND key, written before the head and the link *)
  destruct (head_link_written (ch_id c) (mk_rr (ch_id c) (ch_id c) (c_number (ch_cache c) + 1) 0 self ext')
              (r_node e) (r_number e) (put_round self (closed_rec self start s) d)) as (W1 & W2 & W3 & W4).
  do 3 (split; [reflexivity|]).
  split; [exists start, end_; split; [exact (se_final Hef) | rewrite <- (se_id Hef); reflexivity]|].
  do 2 (split; [reflexivity|]). split; [exact W1|].
  split.
  { pose proof (ss_head St) as Fs. pose proof (ss_free St) as Fself.
    exists s. refine (conj Fs (conj (ss_number St) (conj Fself _))).
    rewrite W4 by congruence. rewrite find_put_round, N.eqb_refl. reflexivity. }
  exists e. refine (conj (ss_ext St) (conj (ss_hash St) (conj (ss_forward St) _))).
  split; [rewrite W2, N.eqb_refl; reflexivity|].
  split; [intros n Hn; rewrite W2, (proj2 (N.eqb_neq n _) Hn); reflexivity|].
  split; [exact W3|].
  split; intros ->.
  - destruct (se_ordinary Hef eq_refl) as [Ehash Hl]. rewrite get_link_cons, N.eqb_refl.
    refine (conj eq_refl (conj Ehash (conj (lc_other Hl) (conj (lc_mirror Hl) (conj eq_refl _))))).
    intros n Hn. rewrite get_link_cons, (proj2 (N.eqb_neq n _) Hn). reflexivity.
  - destruct (se_dummy Hef eq_refl). auto.
Qed.
Print Assumptions C20_step.

(* An accepted empty-head update: round number, self reference and final round
   are unchanged, the head was empty; the new external is a stored record under
   the referenced hash of a DIFFERENT node, LINK = RoundLinks before and after,
   not decreased; nothing else changes. *)
Theorem C20_update_step : forall d c self ext ts strict sanity d' c',
  update_empty_head d c self ext ts strict sanity = (d', c', Ok tt) ->
  let k := ch_cache c in
  let id := ch_id c in
  ch_id c' = id /\ ch_final c' = ch_final c /\
  c_number (ch_cache c') = c_number k /\ c_self (ch_cache c') = c_self k /\ self = c_self k /\
  c_snaps k = [] /\ c_ext (ch_cache c') = ext /\
  find_round id (d_rounds d') = Some (mk_rr id id (c_number k) 0 self ext) /\
  exists e,
    find_round ext (d_rounds d) = Some e /\ r_hash e = ext /\ r_node e <> id /\
    dur_link d id (r_node e) = get_link (r_node e) (ch_links c) /\
    get_link (r_node e) (ch_links c) <= r_number e /\
    dur_link d' id (r_node e) = r_number e /\ get_link (r_node e) (ch_links c') = r_number e /\
    (forall n, n <> r_node e -> dur_link d' id n = dur_link d id n /\
                                get_link n (ch_links c') = get_link n (ch_links c)) /\
    (forall from n, from <> id -> dur_link d' from n = dur_link d from n) /\
    (forall key, key <> id -> find_round key (d_rounds d') = find_round key (d_rounds d)).
Proof.
  intros d c self ext ts strict sanity d' c' Hs. cbv zeta.
  apply update_cases in Hs as (s & e & Hef). pose proof (ue_link Hef) as Hl.
  rewrite (ue_chain Hef), (us_written (ue_stored Hef)).
  cbn [ch_id ch_cache ch_final ch_links c_number c_self c_ext c_snaps].
  destruct (head_link_written (ch_id c) (mk_rr (ch_id c) (ch_id c) (c_number (ch_cache c)) 0 self ext)
              (r_node e) (r_number e) d) as (W1 & W2 & W3 & W4).
  do 3 (split; [reflexivity|]).
  refine (conj (ue_self Hef) (conj (ue_self Hef) (conj (ue_empty Hef) (conj eq_refl (conj W1 _))))).
  exists e. rewrite get_link_cons, W2, !N.eqb_refl.
  refine (conj (us_ext (ue_stored Hef)) (conj (ue_hash Hef) (conj (lc_other Hl) (conj (lc_mirror Hl)
         (conj (lc_forward Hl) (conj eq_refl (conj eq_refl (conj _ (conj W3 W4))))))))).
  intros n Hn. rewrite W2, get_link_cons, (proj2 (N.eqb_neq n _) Hn). auto.
Qed.
Print Assumptions C20_update_step.

(* A rejected transition (outcome class 1 = an error was returned), whatever the
   references, flags and oracle: the durable records are unchanged and every
   chain's in-memory state is unchanged except for the ORDER of the live round's
   snapshot slice (validateSnapshot and ComputeRoundHash sort it in place). *)
Theorem C20_reject_unchanged : forall (H : hin -> N) sort sort_ts w o w',
  sort_spec snap_lt sort -> sort_spec ts_lt sort_ts -> NoDup (ids w) ->
  step H sort sort_ts w o = (w', 1) ->
  w_dur w' = w_dur w /\ Forall2 same_but_order (w_chains w) (w_chains w').
Proof. intros H sort sort_ts w o w' HS _. exact (step_reject_unchanged H sort sort_ts w o w' HS). Qed.
Print Assumptions C20_reject_unchanged.

Theorem C20_reject_unchanged_start : forall (H : hin -> N) sort d c self ext ts finalized sanity d' c',
  start_new_round H sort d c self ext ts finalized sanity = (d', c', Err) ->
  d' = d /\ (c' = c \/ c' = set_snaps c (sort (c_snaps (ch_cache c)))).
Proof. intros H sort d c self ext ts finalized sanity d' c'. apply start_cases. Qed.
Print Assumptions C20_reject_unchanged_start.

Theorem C20_reject_unchanged_update : forall d c self ext ts strict sanity d' c',
  update_empty_head d c self ext ts strict sanity = (d', c', Err) -> d' = d /\ c' = c.
Proof. intros d c self ext ts strict sanity d' c'. apply update_cases. Qed.
Print Assumptions C20_reject_unchanged_update.

(* Memory = durable in every reachable state: from a world satisfying the
   invariant (distinct node ids; per chain: RoundLinks = LINK records, the cache
   round's external is a stored non-head record whose number is the link), after
   ANY history of live-round accepts, starts and empty-head updates - any
   references, flags, oracles - whose external references are not node ids and
   which did not panic, the invariant holds again; in particular RoundLinks
   equals the LINK records for every chain and every node. *)
Theorem C20_mirror_outside : forall (H : hin -> N) sort sort_ts os w w' ks,
  world_inv w -> Forall (honest (ids w)) os ->
  steps H sort sort_ts w os = (w', ks) -> ~ In 2 ks ->
  world_inv w' /\
  forall c, In c (w_chains w') -> forall n, get_link n (ch_links c) = dur_link (w_dur w') (ch_id c) n.
Proof.
  intros H sort sort_ts os w w' ks Hw Hh Hs Hk.
  assert (Hw' : world_inv w') by (eapply steps_preserve; eassumption).
  split; [exact Hw' | apply world_inv_mirror; exact Hw'].
Qed.
Print Assumptions C20_mirror_outside.

Definition ex_H (x : hin) : N :=
  match x with HSeed n k => 1000 * n + k + 100 | HLink p h => 7 * p + h + 1 end.
Definition ex_t : N := 1700000000000000000.
Definition ex_final0 (id : N) : final_round :=
  mk_fr id 0 (ex_t + id) (ex_t + id) (ex_H (HLink (ex_H (HSeed id 0)) (900 + id))).
Definition ex_h0 (id : N) : N := f_hash (ex_final0 id).
Definition ex_chain (id next : N) : chain :=
  mk_chain id (ex_final0 id) (mk_cr id 1 (ex_t + id + round_gap + 1) (ex_h0 id) (ex_h0 next) []) [].
Definition ex_world : world :=
  mk_world
    (mk_dur [ (ex_h0 1, mk_rr (ex_h0 1) 1 0 (ex_t + 1) 0 0); (1, mk_rr 1 1 1 0 (ex_h0 1) (ex_h0 2));
              (ex_h0 2, mk_rr (ex_h0 2) 2 0 (ex_t + 2) 0 0); (2, mk_rr 2 2 1 0 (ex_h0 2) (ex_h0 3));
              (ex_h0 3, mk_rr (ex_h0 3) 3 0 (ex_t + 3) 0 0); (3, mk_rr 3 3 1 0 (ex_h0 3) (ex_h0 1)) ] [])
    [ex_chain 1 2; ex_chain 2 3; ex_chain 3 1].

Example ex_world_inv : world_inv ex_world.
Proof.
  split; [vm_compute; repeat constructor; cbn; intuition discriminate|].
  repeat constructor; try (intro n; reflexivity);
    try (vm_compute; intuition discriminate);
    (eexists; split; vm_compute; reflexivity).
Qed.

Definition ex_snap (h ts : N) : snap := mk_snap h ts 2 1 [5000 + h].
(* the hash a chain's live round closes to, in a given world *)
Definition ex_good (w : world) (id : N) : N :=
  match find_chain id (w_chains w) with
  | Some c => match as_final ex_H isort_snap (c_node (ch_cache c)) (c_number (ch_cache c)) (c_snaps (ch_cache c)) with
              | Ok (Some (_, _, h)) => h | _ => 0 end
  | None => 0
  end.
Definition ex_run (w : world) (os : list op) := steps ex_H isort_snap isort_ts w os.

(* honest history: chain 1 closes its round referencing chain 2's final round,
   an own-chain and a backward reference are rejected, a forward one is accepted *)
Definition ex_w1 : world := fst (ex_run ex_world [OAdd 1 (ex_snap 11 (ex_t + round_gap + 10))]).
Definition ex_ops_honest : list op :=
  [ OAdd 1 (ex_snap 11 (ex_t + round_gap + 10));
    OStart 1 (ex_good ex_w1 1) (ex_h0 2) (ex_t + 2 * round_gap) false true;
    OUpdate 1 (ex_good ex_w1 1) (ex_h0 1) (ex_t + 2 * round_gap) false true;       (* own chain: error *)
    OUpdate 3 (ex_h0 3) (ex_good ex_w1 1) (ex_t + 2 * round_gap) true true;        (* forward: ok *)
    OUpdate 3 (ex_h0 3) (ex_h0 1) (ex_t + 2 * round_gap) false true;               (* back link: error *)
    OAdd 3 (ex_snap 12 (ex_t + round_gap + 20)) ].
Example C20_ex_honest :
  Forall (honest (ids ex_world)) ex_ops_honest /\
  snd (ex_run ex_world ex_ops_honest) = [0; 0; 1; 0; 1; 0].
Proof.
  split; [|vm_compute; reflexivity].
  repeat constructor; vm_compute; intuition discriminate.
Qed.

(* Without [honest]: chain 1 takes chain 2's node id as external reference (the
   HEAD record of chain 2, round 1, not a final round) and the transition is
   accepted ... *)
Theorem C20_external_final_refuted : exists w o w' e,
  world_inv w /\ ~ honest (ids w) o /\
  step ex_H isort_snap isort_ts w o = (w', 0) /\
  o = OUpdate 1 (ex_h0 1) 2 (ex_t + 2 * round_gap) false true /\
  find_round 2 (d_rounds (w_dur w)) = Some e /\ r_hash e = 2 /\ r_number e = 1 /\
  (* chain 2's final round is round 0, yet chain 1 now links to round 1 of chain 2 *)
  (exists c2, find_chain 2 (w_chains w) = Some c2 /\ f_number (ch_final c2) = 0) /\
  dur_link (w_dur w') 1 2 = 1.
Proof.
  exists ex_world, (OUpdate 1 (ex_h0 1) 2 (ex_t + 2 * round_gap) false true).
  eexists. eexists. split; [exact ex_world_inv|].
  split; [cbn; intro Hn; apply Hn; vm_compute; auto|].
  split; [vm_compute; reflexivity|]. split; [reflexivity|].
  split; [vm_compute; reflexivity|]. split; [reflexivity|]. split; [reflexivity|].
  split; [eexists; split; vm_compute; reflexivity | vm_compute; reflexivity].
Qed.
Print Assumptions C20_external_final_refuted.

(* ... and once chain 2 has advanced, a dummy-external start of chain 1 re-reads
   that head record and writes LINK 1=>2 = 2 while RoundLinks keeps 1: memory and
   durable state differ in a reachable state (no step panicked); the next
   reference of chain 1 to chain 2 then panics. *)
Definition ex_w2 : world := fst (ex_run ex_world
  [ OUpdate 1 (ex_h0 1) 2 (ex_t + 2 * round_gap) false true; OAdd 2 (ex_snap 21 (ex_t + round_gap + 10)) ]).
Definition ex_w3 : world := fst (ex_run ex_w2
  [ OStart 2 (ex_good ex_w2 2) (ex_h0 3) (ex_t + 2 * round_gap) true true; OAdd 1 (ex_snap 11 (ex_t + round_gap + 10)) ]).
Definition ex_ops_head : list op :=
  [ OUpdate 1 (ex_h0 1) 2 (ex_t + 2 * round_gap) false true;
    OAdd 2 (ex_snap 21 (ex_t + round_gap + 10));
    OStart 2 (ex_good ex_w2 2) (ex_h0 3) (ex_t + 2 * round_gap) true true;
    OAdd 1 (ex_snap 11 (ex_t + round_gap + 10));
    OStart 1 (ex_good ex_w3 1) 77777 (ex_t + 2 * round_gap) true true ].
Theorem C20_mirror_refuted : exists w os w' ks c,
  world_inv w /\ steps ex_H isort_snap isort_ts w os = (w', ks) /\ ~ In 2 ks /\
  In c (w_chains w') /\ ch_id c = 1 /\
  get_link 2 (ch_links c) = 1 /\ dur_link (w_dur w') 1 2 = 2 /\
  snd (step ex_H isort_snap isort_ts w'
         (OUpdate 1 (c_self (ch_cache c)) (ex_good ex_w2 2) (ex_t + 3 * round_gap) false true)) = 2.
Proof.
  exists ex_world, ex_ops_head. eexists. eexists. eexists.
  split; [exact ex_world_inv|].
  split; [vm_compute; reflexivity|].
  split; [cbn; intuition discriminate|].
  split; [left; reflexivity|].
  split; [reflexivity|]. split; [reflexivity|]. split; [vm_compute; reflexivity | vm_compute; reflexivity].
Qed.
Print Assumptions C20_mirror_refuted.
