(* C21 - consensus bookkeeping survives a crash after any finalization.

   Model/Crash.v: a workload is the list of atomic durable calls a kernel issues at the
   storage.Store interface ([wf_calls]: the guards enforced by the kernel and by the store's
   assertions; other chains' ordinary WriteSnapshot calls may be interleaved anywhere, also
   between a consensus-class WriteSnapshot and its marker write).  A crash keeps the first k
   calls ([crash_state]); [recover] is kernel.SetupNode, [repair] its LastSnapshot-based
   marker repair, [last_cons] the last consensus-class snapshot of the topology. *)
From Coq Require Import List ZArith NArith Bool.
Require Import Mixin.Base.Res Mixin.Model.Crash Mixin.Proofs.Crash.
Import ListNotations.
Open Scope N_scope.

(* the call sequence observed on the real node for the corpus workload "corpus-F6":
   deposit; node pledge (snapshot 9) whose marker write is overtaken by another chain's
   deposit snapshot 10 *)
Definition f6_workload : list call :=
  [CCache 8; CLockGhost 8; CLockIn 8; CWriteTx 8; CWriteSnap 8 1 1 [8] false 0;
   CCache 9; CLockGhost 9; CNodeOp 9; CLockIn 9; CWriteTx 9; CWriteSnap 9 3 1 [9] true 7;
   CCache 10; CLockGhost 10; CLockIn 10; CWriteTx 10; CWriteSnap 10 2 1 [10] false 0;
   CMarker 9].

(* F6: consensus snapshot 9 is durably finalized, an ordinary snapshot of another chain
   follows, the process stops before the marker write (the first 16 of the 17 calls survive):
   the restarted node still records the genesis operation 7 ([genesis 7]: seven chains, the
   custodian transaction has id 7). *)
Theorem C21_refuted :
  exists l k c m, wf_calls (genesis 7) l = true /\
    last_cons (topo (crash_state 7 l k)) = Some c /\
    marker_lost_region (crash_state 7 l k) = true /\
    recover (crash_state 7 l k) = Ok m /\ m <> s_id c.
Proof.
  exists f6_workload, 16%nat,
    {| s_id := 9; s_chain := 3; s_round := 1; s_txs := [9]; s_cons := true; s_ref := 7 |}, 7.
  vm_compute. repeat split; try reflexivity. discriminate.
Qed.
Print Assumptions C21_refuted.

(* Outside that region - the last durably finalized consensus snapshot c is recorded already
   or no snapshot follows it in topology order - for every workload, every interleaving and
   every crash point: c is at or after every consensus snapshot of the topology, the startup
   repair yields c, whatever restart returns is c, and restart does return c unless the cut
   lies inside a node-accept sequence (C22's finding). *)
Theorem C21_outside : forall n l k, wf_calls (genesis n) l = true ->
  let st := crash_state n l k in
  exists c, last_cons (topo st) = Some c /\
    (forall c', In c' (topo st) -> s_cons c' = true ->
       exists newer older, topo st = newer ++ c :: older /\
         (forall x, In x newer -> s_cons x = false) /\ (c' = c \/ In c' older)) /\
    (marker_lost_region st = false ->
       repair st = Ok (s_id c) /\
       (forall m, recover st = Ok m -> m = s_id c) /\
       (in_accept_window st = false -> recover st = Ok (s_id c))).
Proof.
  intros n l k Hwf st. pose proof (crash_state_inv n l k Hwf : Inv st) as HI.
  destruct (repair_inv st HI) as (c & Hc & Hrep). exists c.
  split; [exact Hc|]. split; [exact (last_cons_latest _ c Hc)|].
  intros Hreg. rewrite Hreg in Hrep. rewrite (recover_inv st HI), Hrep. split; [reflexivity|]. split.
  - intros m. destruct (in_accept_window st); [discriminate | intros [= <-]; reflexivity].
  - intros ->. reflexivity.
Qed.
Print Assumptions C21_outside.

(* Non-vacuity: the control workload (same pledge, nothing interleaved) is a workload; cut
   right after the consensus WriteSnapshot it is outside the region and restart records 9;
   the complete F6 workload is outside the region as well. *)
Example C21_outside_applies :
  let l := [CCache 8; CLockGhost 8; CLockIn 8; CWriteTx 8; CWriteSnap 8 1 1 [8] false 0;
            CCache 9; CLockGhost 9; CNodeOp 9; CLockIn 9; CWriteTx 9; CWriteSnap 9 3 1 [9] true 7;
            CMarker 9; CCache 10; CLockGhost 10; CLockIn 10; CWriteTx 10; CWriteSnap 10 2 1 [10] false 0] in
  wf_calls (genesis 7) l = true /\
  marker_lost_region (crash_state 7 l 11) = false /\ recover (crash_state 7 l 11) = Ok 9 /\
  marker (crash_state 7 l 11) = 7 /\
  marker_lost_region (crash_state 7 f6_workload 17) = false /\ recover (crash_state 7 f6_workload 17) = Ok 9.
Proof. vm_compute. repeat split; reflexivity. Qed.
