(* C18 - round hashes are a deterministic function of the round's snapshot set.
   Property theorems, proved from the lemmas of Proofs/RoundHash.v about the
   executable model Model/RoundHash.v (two separate transcriptions: the live
   node's common.ComputeRoundHash and the startup validator's
   storage.computeRoundHash), which harness/cmd/c18 runs against both Go functions.
   [H] is Blake3 as an abstract function of the fields fed to it; [sort] is ANY
   procedure returning a sorted permutation w.r.t. the (timestamp, hash)
   comparator - which is all sort.Slice promises. *)
From Coq Require Import List ZArith NArith Bool Permutation Sorted.
Require Import Mixin.Base.Res Mixin.Model.RoundHash Mixin.Proofs.RoundHash.
Import ListNotations.
Open Scope N_scope.

(* The order the snapshots are supplied in does not matter (start, end, hash and
   even the panic outcome are equal). *)
Theorem C18_perm_invariant : forall (H : hin -> N) sort, sort_spec snap_lt sort ->
  forall node number l l', Permutation l l' ->
  round_hash_common H sort node number l = round_hash_common H sort node number l'.
Proof. exact common_perm_invariant. Qed.
Print Assumptions C18_perm_invariant.

Theorem C18_perm_invariant_storage : forall (H : hin -> N) sort_t, sort_spec tsnap_lt sort_t ->
  forall node number l l', Permutation l l' ->
  round_hash_storage H sort_t node number l = round_hash_storage H sort_t node number l'.
Proof.
  intros H sort_t HT node number l l' HP.
  rewrite !(two_impls_agree H isort_snap sort_t isort_snap_spec HT).
  apply common_perm_invariant; [exact isort_snap_spec | apply Permutation_map; exact HP].
Qed.
Print Assumptions C18_perm_invariant_storage.

(* The startup validator and the live node compute identical start, end and
   hash (and panic on exactly the same sets), whatever conforming sorting
   procedures the two use. *)
Theorem C18_two_impls_agree : forall (H : hin -> N) sort sort_t,
  sort_spec snap_lt sort -> sort_spec tsnap_lt sort_t ->
  forall node number lt,
  round_hash_storage H sort_t node number lt = round_hash_common H sort node number (map t_snap lt).
Proof. exact two_impls_agree. Qed.
Print Assumptions C18_two_impls_agree.

(* The result depends only on the node, the round number and the (multi)set of
   (timestamp, hash) pairs: not on versions, transactions or any other field, and
   not on the sorting procedure. *)
Theorem C18_depends_only_on : forall (H : hin -> N) sort sort',
  sort_spec snap_lt sort -> sort_spec snap_lt sort' ->
  forall node number l l', Permutation (map skey l) (map skey l') ->
  round_hash_common H sort node number l = round_hash_common H sort' node number l'.
Proof. exact common_depends_only_on_keys. Qed.
Print Assumptions C18_depends_only_on.

(* ... and for rounds without a repeated (timestamp, hash) - every live round, by
   C19 - on the SET of pairs. *)
Theorem C18_depends_only_on_set : forall (H : hin -> N) sort sort',
  sort_spec snap_lt sort -> sort_spec snap_lt sort' ->
  forall node number l l',
  NoDup (map skey l) -> NoDup (map skey l') ->
  (forall k, In k (map skey l) <-> In k (map skey l')) ->
  round_hash_common H sort node number l = round_hash_common H sort' node number l'.
Proof.
  intros H sort sort' HS HS' node number l l' N1 N2 Hiff.
  apply common_depends_only_on_keys; [exact HS | exact HS' | apply NoDup_Permutation; assumption].
Qed.
Print Assumptions C18_depends_only_on_set.

(* What the function is: the chained hash over the uniquely sorted key list,
   seeded by (node, number); start = first, end = last timestamp. *)
Theorem C18_is_chained_hash_of_sorted_set : forall (H : hin -> N) sort, sort_spec snap_lt sort ->
  forall node number l,
  round_hash_common H sort node number l = round_hash_spec H node number (map skey (sort l)).
Proof. exact common_spec. Qed.
Print Assumptions C18_is_chained_hash_of_sorted_set.

(* Non-vacuity: a conforming sort exists (the one the model is run with), and the
   statements are exercised on concrete data with a hash that separates inputs. *)
Example C18_ex_sort_exists : sort_spec snap_lt isort_snap /\ sort_spec tsnap_lt isort_tsnap.
Proof. split; [exact isort_snap_spec | exact isort_tsnap_spec]. Qed.

Definition ex_H (x : hin) : N :=
  match x with HSeed n k => 1000 * n + k | HLink p h => 7 * p + h + 1 end.
Definition ex_a := mk_snap 5 100 2 3 [].
Definition ex_b := mk_snap 4 100 1 3 [11].
Definition ex_c := mk_snap 9 99 2 3 [].
Example C18_ex_values :
  round_hash_common ex_H isort_snap 1 3 [ex_a; ex_b; ex_c] = round_hash_common ex_H isort_snap 1 3 [ex_c; ex_b; ex_a]
  /\ round_hash_common ex_H isort_snap 1 3 [ex_a; ex_b; ex_c] = Ok (99, 100, 344560)
  /\ round_hash_storage ex_H isort_tsnap 1 3 [mk_tsnap ex_b 8; mk_tsnap ex_c 2; mk_tsnap ex_a 1] = Ok (99, 100, 344560)
  /\ round_hash_common ex_H isort_snap 1 3 [ex_a; ex_c] <> round_hash_common ex_H isort_snap 1 3 [ex_a; ex_b; ex_c]
  /\ round_hash_common ex_H isort_snap 1 3 [] = Panic
  /\ round_hash_common ex_H isort_snap 1 3 [ex_a; mk_snap 1 (100 + round_gap) 2 3 []] = Panic.
Proof. vm_compute. repeat split; discriminate. Qed.
