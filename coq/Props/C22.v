(* C22 - restart after a crash at any write boundary yields a consistent ledger.

   Model/Crash.v: workloads are lists of atomic durable calls ([wf_calls]) or lists of kernel
   procedures ([run_procs]: admission [LockGhostKeys; Lock*; WriteTransaction], round
   transition, finalization of an ordinary or consensus-class snapshot, node acceptance
   [StartNewRound 0; WriteSnapshot; StartNewRound 1; marker]); a crash keeps the first k calls.
   [in_accept_window]: some chain's head round is 0, i.e. the cut lies between the two
   StartNewRound calls of a node acceptance. *)
From Coq Require Import List ZArith NArith Bool.
Require Import Mixin.Base.Res Mixin.Model.Crash Mixin.Proofs.Crash.
Import ListNotations.
Open Scope N_scope.

(* Every workload, every cut not inside a node-accept sequence: the validator counts no invalid
   entry over the whole graph, restart succeeds, every finalized transaction has its body, its
   outputs and a finalization record naming a snapshot of the topology that contains it, and no
   snapshot occupies two topology positions. *)
Theorem C22_prefix_safe : forall n l k, wf_calls (genesis n) l = true ->
  let st := crash_state n l k in
  in_accept_window st = false ->
  validate st = Ok 0 /\ (exists m, recover st = Ok m) /\ finalized_complete st = true /\
  NoDup (map s_id (topo st)).
Proof.
  intros n l k Hwf st Hw. pose proof (crash_state_inv n l k Hwf : Inv st) as HI.
  rewrite (recover_inv st HI), Hw. destruct (repair_inv st HI) as (c & _ & Hm).
  exact (conj (validate_ok st HI) (conj (ex_intro _ _ Hm) (conj (complete_ok st HI) (inv_ids st HI)))).
Qed.
Print Assumptions C22_prefix_safe.

(* The same for workloads given as lists of kernel procedures (a procedure whose guard fails
   issues no call). *)
Theorem C22_procedures_safe : forall n ps k,
  let st := crash_state n (run_procs (genesis n) ps) k in
  in_accept_window st = false ->
  validate st = Ok 0 /\ (exists m, recover st = Ok m) /\ finalized_complete st = true /\
  NoDup (map s_id (topo st)).
Proof. intros n ps k. apply C22_prefix_safe, run_procs_wf. Qed.
Print Assumptions C22_procedures_safe.

(* First finalization wins: whatever is written later (also a snapshot of another chain that contains
   the same transaction), a transaction's finalization record keeps naming the snapshot that first
   finalized it ... *)
Theorem C22_first_finalization_kept : forall l st t f,
  lookup t (fins st) = Some f -> lookup t (fins (exec st l)) = Some f.
Proof.
  intros l st t f. apply (Mixin.Proofs.Lists.fold_left_inv (fun st => lookup t (fins st) = Some f)).
  intros a c _. apply fins_kept_step.
Qed.
Print Assumptions C22_first_finalization_kept.

(* ... and a snapshot all of whose members are already finalized changes neither the
   finalization records nor the stored outputs. *)
Theorem C22_second_inclusion_changes_nothing : forall st s ch r txs,
  (forall t, In t txs -> lookup t (fins st) <> None) ->
  fins (exec_call st (CWriteSnap s ch r txs false 0)) = fins st /\
  outs (exec_call st (CWriteSnap s ch r txs false 0)) = outs st.
Proof.
  intros st s ch r txs H. cbn [exec_call fins outs]. rewrite (finalize_known s txs (fins st, outs st) H). split; reflexivity.
Qed.
Print Assumptions C22_second_inclusion_changes_nothing.

(* The window is opened by StartNewRound(_, 0) only - the first call of node acceptance. *)
Theorem C22_window_opened_only_by_accept : forall st c,
  in_accept_window st = false -> (forall ch, c <> CStartRound ch 0) ->
  in_accept_window (exec_call st c) = false.
Proof.
  intros st c Hw Hc. destruct c as [| | | | |ch n| | | |]; try exact Hw.
  destruct (N.eqb_spec n 0) as [->|Hn]; [destruct (Hc ch eq_refl)|].
  unfold in_accept_window in *. cbn [exec_call heads set_head existsb snd]. rewrite (proj2 (N.eqb_neq n 0) Hn).
  apply not_true_is_false. intros E. apply existsb_exists in E. destruct E as (p & Hp & Hz).
  apply filter_In in Hp. rewrite (proj2 (existsb_exists _ _)) in Hw; [discriminate Hw | exists p; tauto].
Qed.
Print Assumptions C22_window_opened_only_by_accept.

(* F7: the accept sequence observed on the real node (corpus workload "corpus-F7") cut after
   its first StartNewRound, the 17th call: restart panics (loadState computes round 0 - 1). *)
Definition f7_workload : list call :=
  [CCache 8; CLockGhost 8; CLockIn 8; CWriteTx 8; CWriteSnap 8 3 1 [8] false 0;
   CCache 9; CLockGhost 9; CNodeOp 9; CLockIn 9; CWriteTx 9; CWriteSnap 9 3 1 [9] true 7; CMarker 9;
   CCache 10; CLockGhost 10; CLockIn 10; CWriteTx 10;
   CStartRound 7 0; CWriteSnap 10 7 0 [10] true 9; CStartRound 7 1; CMarker 10].

Theorem C22_accept_window_refuted :
  exists l k, wf_calls (genesis 7) l = true /\
    in_accept_window (crash_state 7 l k) = true /\ recover (crash_state 7 l k) = Panic.
Proof. exists f7_workload, 17%nat. vm_compute. repeat split; reflexivity. Qed.
Print Assumptions C22_accept_window_refuted.

(* and so does every cut of every workload that lies inside the window *)
Theorem C22_accept_window_always_panics : forall n l k, wf_calls (genesis n) l = true ->
  let st := crash_state n l k in in_accept_window st = true -> recover st = Panic.
Proof. intros n l k Hwf st Hw. rewrite (recover_inv st (crash_state_inv n l k Hwf)), Hw. reflexivity. Qed.
Print Assumptions C22_accept_window_always_panics.

(* Non-vacuity: a procedure workload with admission, finalization, a round transition, a
   consensus snapshot and a node acceptance issues 21 calls; cuts outside the window satisfy the
   hypothesis (also the one after the second StartNewRound), cuts 18 and 19 are inside. *)
Example C22_hypotheses_satisfiable :
  let ps := [PAdmit 8; PFinal 8 1 [8]; PRound 1; PAdmit 9; PFinal 9 1 [9]; PAdmit 10; PCons 10 3 10;
             PAdmit 11; PAccept 11 7 11] in
  let l := run_procs (genesis 7) ps in
  length l = 21%nat /\
  forallb (fun k => negb (in_accept_window (crash_state 7 l k))) (seq 0 18 ++ [20; 21]%nat) = true /\
  in_accept_window (crash_state 7 l 18) = true /\ in_accept_window (crash_state 7 l 19) = true /\
  recover (crash_state 7 l 21) = Ok 11 /\ recover (crash_state 7 l 20) = Ok 11 /\
  wf_calls (genesis 7) f7_workload = true.
Proof. vm_compute. repeat split; reflexivity. Qed.
