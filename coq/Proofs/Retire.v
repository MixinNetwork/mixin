(* The proposal-retirement model (Model/Retire.v): requeueing only adds to the
   cache ([grows]) and leaves the hashes it is not given alone ([same_at]);
   retry, expiry and reset are folds of it. *)
From Coq Require Import List ZArith NArith Bool Lia ZifyN ZifyNat ZifyBool.
Require Import Mixin.Base.Res Mixin.Gen.Consts Mixin.Model.Cache Mixin.Model.Retire
               Mixin.Proofs.Lists Mixin.Proofs.Cache.
Import ListNotations.
Open Scope N_scope.

(* what requeueTransactions sees.  A requeue of h may overwrite the cached body
   of h, so has_body alone is not preserved; has_body or eligible ([ready]) is. *)
Definition unfinalized (ps : pstore) (h : N) : Prop := snd (read_tx ps h) = false.
Definition has_body (ps : pstore) (c : cache) (h : N) : Prop :=
  fst (read_tx ps h) <> None \/ exists b, get_tx h c = Ok (Some b).
Definition ready (ps : pstore) (c : cache) (h : N) : Prop := has_body ps c h \/ eligible c h.

Definition same_at (x : N) (c c' : cache) : Prop :=
  pending x c' = pending x c /\
  (forall ts, In (ts, x) (queue c') <-> In (ts, x) (queue c)) /\
  (In x (order c') <-> In x (order c)) /\
  aget x (payload c') = aget x (payload c).

Lemma same_at_refl x c : same_at x c c.
Proof. unfold same_at. intuition. Qed.

Lemma same_at_trans x a b c : same_at x a b -> same_at x b c -> same_at x a c.
Proof.
  intros (H1 & H2 & H3 & H4) (G1 & G2 & G3 & G4).
  split; [congruence|]. split; [intro ts; rewrite G2; apply H2|]. split; [rewrite G3; exact H3 | congruence].
Qed.

Lemma count_qins_other x k q : snd k <> x -> count x (map snd (qins k q)) = count x (map snd q).
Proof.
  intros Hne. unfold count. induction q as [|y q IH]; cbn [qins].
  - cbn [map count_occ]. destruct (N.eq_dec (snd k) x); [contradiction | reflexivity].
  - destruct (key_eqb k y); [reflexivity|]. destruct (key_ltb k y); cbn [map count_occ]; [|rewrite IH; reflexivity].
    destruct (N.eq_dec (snd k) x); [contradiction | reflexivity].
Qed.

Lemma queue_tx_same_at ts h b c x : h <> x -> same_at x c (queue_tx ts h b c).
Proof.
  intros Hne. unfold queue_tx. destruct (mem h (order c)); [apply same_at_refl|].
  unfold same_at, pending. cbn [queue order payload].
  split; [apply count_qins_other; exact Hne|]. split; [|split].
  - intros t. rewrite In_qins. split; [intros [?|?]; [congruence | assumption] | right; assumption].
  - rewrite In_oins. split; [intros [?|?]; [congruence | assumption] | right; assumption].
  - rewrite aget_aset, (proj2 (N.eqb_neq h x) Hne). reflexivity.
Qed.

Definition grows (ps : pstore) (c c' : cache) : Prop :=
  (cache_wf c -> cache_wf c') /\
  (forall x, eligible c x -> eligible c' x) /\
  (forall x, ready ps c x -> ready ps c' x).

Lemma grows_refl ps c : grows ps c c.
Proof. unfold grows. auto. Qed.

Lemma grows_trans ps a b c : grows ps a b -> grows ps b c -> grows ps a c.
Proof. unfold grows. intuition. Qed.

Lemma queue_tx_grows ps ts h b c : grows ps c (queue_tx ts h b c).
Proof.
  split; [apply wf_queue|]. split; [intro x; apply eligible_queue_mono|].
  intros x [[Hb|[b' Hb]]|He]; [left; left; exact Hb | | right; apply eligible_queue_mono, He].
  destruct (mem h (order c)) eqn:Em; [unfold queue_tx; rewrite Em; left; right; eauto|].
  destruct (N.eqb_spec h x) as [->|Hne].
  - right. destruct (queue_tx_fresh ts x b c Em) as [Hq Hp]. split; eauto.
  - left. right. exists b'. unfold queue_tx, get_tx, read_body in *. rewrite Em. cbn [payload].
    rewrite aget_aset, (proj2 (N.eqb_neq h x) Hne). exact Hb.
Qed.

Lemma requeue_one_cases ps c t h :
  fst (requeue_one ps (c, t) h) = c \/ exists b, fst (requeue_one ps (c, t) h) = queue_tx t h b c.
Proof.
  unfold requeue_one. destruct (read_tx ps h) as [[b|] [|]]; cbn [fst]; eauto.
  destruct (get_tx h c) as [[b|]| |]; cbn [fst]; eauto.
Qed.

Lemma requeue_one_grows ps st h : grows ps (fst st) (fst (requeue_one ps st h)).
Proof.
  destruct st as [c t]. destruct (requeue_one_cases ps c t h) as [->|[b ->]]; [apply grows_refl | apply queue_tx_grows].
Qed.

Lemma requeue_one_same_at ps st h x : h <> x -> same_at x (fst st) (fst (requeue_one ps st h)).
Proof.
  intros Hne. destruct st as [c t].
  destruct (requeue_one_cases ps c t h) as [->|[b ->]]; [apply same_at_refl | apply queue_tx_same_at, Hne].
Qed.

Lemma requeue_one_eligible ps st h :
  cache_wf (fst st) -> unfinalized ps h -> ready ps (fst st) h -> eligible (fst (requeue_one ps st h)) h.
Proof.
  destruct st as [c t]. unfold unfinalized, ready, has_body, requeue_one. cbn [fst]. intros Hwf Hu Hr.
  destruct (read_tx ps h) as [[b|] f]; cbn [fst snd] in Hu, Hr |- *; subst f; [apply queue_tx_eligible, Hwf|].
  (* the first case is the hypothesis None <> None *)
  destruct Hr as [[[]|[b ->]]|He]; [reflexivity | apply queue_tx_eligible, Hwf|].
  destruct (get_tx h c) as [[b|]| |]; cbn [fst]; auto. apply eligible_queue_mono, He.
Qed.

Lemma requeue_grows ps hs st : grows ps (fst st) (fst (requeue ps hs st)).
Proof.
  apply (fold_left_inv (fun st' => grows ps (fst st) (fst st'))); [|apply grows_refl].
  intros st' h _ Hg. exact (grows_trans _ _ _ _ Hg (requeue_one_grows ps st' h)).
Qed.

Lemma requeue_same_at : forall ps hs c t x, ~ In x hs -> same_at x c (fst (requeue ps hs (c, t))).
Proof.
  intros ps hs c t x Hn. apply (fold_left_inv (fun st' => same_at x c (fst st'))); [|apply same_at_refl].
  intros st' h Hin Hs. apply (same_at_trans _ _ _ _ Hs), requeue_one_same_at. intros ->. exact (Hn Hin).
Qed.

Lemma requeue_eligible_all : forall ps hs c t x,
  cache_wf c -> In x hs -> unfinalized ps x -> ready ps c x ->
  eligible (fst (requeue ps hs (c, t))) x.
Proof.
  intros ps hs c t x Hwf Hin Hu Hr.
  apply (fold_left_establish _ (fun st => cache_wf (fst st) /\ ready ps (fst st) x)
           (fun st => eligible (fst st) x) hs x Hin); [| | |auto].
  - intros st h [H1 H2]. split; apply (requeue_one_grows ps st h); assumption.
  - intros st [H1 H2]. apply requeue_one_eligible; assumption.
  - intros st h. apply (requeue_one_grows ps st h).
Qed.

Lemma opt_eqb_eq a b : opt_eqb a b = true <-> a = b.
Proof.
  destruct a as [x|], b as [y|]; cbn [opt_eqb]; rewrite ?N.eqb_eq; split; congruence.
Qed.

Lemma retry_aggs ps s st :
  aggs (retry ps s st) = filter (fun a => negb (agg_hash a =? s_hash s)) (aggs st).
Proof. unfold retry. destruct (requeue _ _ _). reflexivity. Qed.

Lemma retry_vers ps s st : vers (retry ps s st) = abandon_vers s (vers st).
Proof. unfold retry. destruct (requeue _ _ _). reflexivity. Qed.

Lemma retry_cch ps s st : cch (retry ps s st) = fst (requeue ps (s_txs s) (cch st, clk st)).
Proof. unfold retry. destruct (requeue _ _ _). reflexivity. Qed.

Lemma aget_adel_sub A h k (v : A) m : aget k (adel h m) = Some v -> aget k m = Some v.
Proof. rewrite aget_adel. destruct (h =? k); [discriminate | auto]. Qed.

Lemma abandon_vers_kept : forall s vs k v,
  aget k vs = Some v -> k <> s_hash s -> aget (s_hash s) vs <> Some v ->
  aget k (abandon_vers s vs) = Some v.
Proof.
  intros s vs k v Hk Hne Hv. unfold abandon_vers. apply fold_left_inv.
  - intros m tx _ Hm. destruct (opt_eqb (aget tx m) (aget (s_hash s) vs)) eqn:E; [|exact Hm].
    apply opt_eqb_eq in E. rewrite aget_adel. destruct (N.eqb_spec tx k) as [->|_]; [congruence | exact Hm].
  - rewrite aget_adel, (proj2 (N.eqb_neq (s_hash s) k)); auto.
Qed.

Lemma abandon_vers_sub s vs k v : aget k (abandon_vers s vs) = Some v -> aget k vs = Some v.
Proof.
  unfold abandon_vers. apply (fold_left_inv (fun m => aget k m = Some v -> aget k vs = Some v)).
  - intros m tx _ Hm. destruct (opt_eqb (aget tx m) (aget (s_hash s) vs)); [|exact Hm].
    intro H. exact (Hm (aget_adel_sub _ _ _ _ _ H)).
  - apply aget_adel_sub.
Qed.

Lemma retry_grows ps s st : grows ps (cch st) (cch (retry ps s st)).
Proof. rewrite (retry_cch ps s st). apply (requeue_grows ps _ (cch st, clk st)). Qed.

Lemma retry_no_loss : forall ps s st h,
  cache_wf (cch st) -> In h (s_txs s) -> unfinalized ps h -> ready ps (cch st) h ->
  eligible (cch (retry ps s st)) h.
Proof.
  intros ps s st h Hwf Hin Hu Hr. rewrite (retry_cch ps s st).
  apply requeue_eligible_all; assumption.
Qed.

(* One step of [expire].  The lemmas below are about the fold over an arbitrary
   list, since the state changes along it while the list stays the initial aggs. *)
Definition estep (ps : pstore) (now : N) (s : rstate) (a : agg) : rstate :=
  if expires now a then retry ps (a_snap a) s else s.

Lemma expire_fold : forall ps now st, expire ps now st = fold_left (estep ps now) (aggs st) st.
Proof. reflexivity. Qed.

Lemma estep_grows ps now st a : grows ps (cch st) (cch (estep ps now st a)).
Proof. unfold estep. destruct (expires now a); [apply retry_grows | apply grows_refl]. Qed.

Lemma efold_grows ps now l st : grows ps (cch st) (cch (fold_left (estep ps now) l st)).
Proof.
  apply (fold_left_inv (fun st' => grows ps (cch st) (cch st'))); [|apply grows_refl].
  intros st' a _ Hg. exact (grows_trans _ _ _ _ Hg (estep_grows ps now st' a)).
Qed.

Lemma efold_no_loss : forall ps now l st a h,
  cache_wf (cch st) -> In a l -> expires now a = true -> In h (s_txs (a_snap a)) ->
  unfinalized ps h -> ready ps (cch st) h ->
  eligible (cch (fold_left (estep ps now) l st)) h.
Proof.
  intros ps now l st a h Hwf Hin He Hh Hu Hr.
  apply (fold_left_establish _ (fun st => cache_wf (cch st) /\ ready ps (cch st) h)
           (fun st => eligible (cch st) h) l a Hin); [| | |auto].
  - intros st' a' [H1 H2]. split; apply (estep_grows ps now st' a'); assumption.
  - intros st' [H1 H2]. unfold estep. rewrite He. apply retry_no_loss; assumption.
  - intros st' a'. apply (estep_grows ps now st' a').
Qed.

Lemma efold_aggs ps now l : forall st a,
  In a (aggs (fold_left (estep ps now) l st)) <->
  In a (aggs st) /\ forall b, In b l -> expires now b = true -> agg_hash a <> agg_hash b.
Proof.
  induction l as [|a0 l IH]; intros st a; cbn [fold_left In]; [tauto|].
  rewrite IH. unfold estep. destruct (expires now a0) eqn:E.
  - rewrite (retry_aggs ps (a_snap a0) st), filter_In, negb_true_iff, N.eqb_neq. fold (agg_hash a0).
    split; [intros [[H1 H2] H3] | intros [H1 H2]]; repeat split; auto. intros b [<-|Hb]; auto.
  - split; intros [H1 H2]; split; auto. intros b [<-|Hb]; [congruence | auto].
Qed.

Lemma expire_aggs : forall ps now st a,
  NoDup (map agg_hash (aggs st)) ->
  (In a (aggs (expire ps now st)) <-> In a (aggs st) /\ expires now a = false).
Proof.
  intros ps now st a Hn. rewrite expire_fold, efold_aggs. split; intros [H1 H2]; (split; [exact H1|]).
  - destruct (expires now a) eqn:E; [destruct (H2 a H1 E eq_refl) | reflexivity].
  - intros b Hb He Hf. rewrite (NoDup_map_inj agg_hash _ a b Hn H1 Hb Hf) in H2. congruence.
Qed.

Lemma efold_vers_kept ps now l : forall st k v,
  aget k (vers st) = Some v ->
  (forall a, In a l -> expires now a = true -> k <> agg_hash a /\ aget (agg_hash a) (vers st) <> Some v) ->
  aget k (vers (fold_left (estep ps now) l st)) = Some v.
Proof.
  induction l as [|a0 l IH]; intros st k v Hk Hall; cbn [fold_left]; [exact Hk|].
  unfold estep. destruct (expires now a0) eqn:E; [|apply IH; [exact Hk | intros; apply Hall; [right|]; assumption]].
  destruct (Hall a0 (or_introl eq_refl) E) as [H1 H2].
  apply IH; rewrite (retry_vers ps (a_snap a0) st); [apply abandon_vers_kept; assumption|].
  intros a Ha He. destruct (Hall a (or_intror Ha) He) as [G1 G2]. split; [exact G1|].
  intros Hc%abandon_vers_sub. exact (G2 Hc).
Qed.

Lemma reset_collect_spec owned txs : forall seen x,
  In x (reset_collect owned txs seen) <-> In x seen \/ (In x txs /\ ~ In x owned).
Proof.
  induction txs as [|tx txs IH]; intros seen x; cbn [reset_collect In]; [tauto|].
  destruct (mem tx owned || mem tx seen) eqn:E; rewrite IH; clear IH.
  - enough (tx = x -> ~ In x owned -> In x seen) by tauto. intros <- Hn.
    apply orb_true_iff in E as [E%mem_In|E%mem_In]; tauto.
  - apply orb_false_iff in E as [E%mem_false _]. rewrite in_app_iff. cbn [In].
    enough (tx = x -> ~ In x owned) by tauto. intros <-. exact E.
Qed.

Lemma reset_retry_spec owned ags x :
  In x (reset_retry owned ags) <-> (exists a, In a ags /\ In x (s_txs (a_snap a))) /\ ~ In x owned.
Proof.
  unfold reset_retry.
  enough (H : forall seen,
    In x (fold_left (fun seen a => reset_collect owned (s_txs (a_snap a)) seen) ags seen) <->
    In x seen \/ ((exists a, In a ags /\ In x (s_txs (a_snap a))) /\ ~ In x owned))
    by (rewrite H; cbn [In]; tauto).
  induction ags as [|a l IH]; intros seen; cbn [fold_left In]; [firstorder|].
  rewrite IH, reset_collect_spec. split.
  - intros [[H|[H Hn]]|[[b [Hb Hx]] Hn]]; eauto 6.
  - intros [H|[[b [[<-|Hb] Hx]] Hn]]; eauto 6.
Qed.

Lemma reset_fields : forall ps owned st,
  aggs (reset ps owned st) = [] /\ vers (reset ps owned st) = [] /\
  cch (reset ps owned st) = fst (requeue ps (reset_retry owned (aggs st)) (cch st, clk st)).
Proof.
  intros ps owned st. unfold reset.
  destruct (requeue ps (reset_retry owned (aggs st)) (cch st, clk st)) as [c t]. auto.
Qed.

Lemma reset_no_loss : forall ps owned st a h,
  cache_wf (cch st) -> In a (aggs st) -> In h (s_txs (a_snap a)) ->
  unfinalized ps h -> has_body ps (cch st) h ->
  eligible (cch (reset ps owned st)) h \/ In h owned.
Proof.
  intros ps owned st a h Hwf Ha Hh Hu Hb.
  destruct (in_dec N.eq_dec h owned) as [Ho|Ho]; [right; exact Ho | left].
  rewrite (proj2 (proj2 (reset_fields ps owned st))).
  apply requeue_eligible_all; try assumption; [|left; exact Hb].
  apply reset_retry_spec. eauto.
Qed.

Lemma reset_owned_untouched : forall ps owned st h,
  In h owned -> same_at h (cch st) (cch (reset ps owned st)).
Proof.
  intros ps owned st h Ho. rewrite (proj2 (proj2 (reset_fields ps owned st))).
  apply requeue_same_at. intros [_ Hn]%reset_retry_spec. exact (Hn Ho).
Qed.

Lemma complete_not_expires : forall now a,
  (a_base a <= a_commit a)%Z -> a_resp a = a_commit a -> expires now a = false.
Proof.
  intros now a H1%Z.leb_le H2. unfold expires, complete. rewrite H1, H2, Z.eqb_refl. apply andb_false_r.
Qed.

Lemma not_yet_not_expires : forall now a,
  now < (s_ts (a_snap a) + round_gap) mod 2 ^ 64 -> expires now a = false.
Proof. intros now a H%N.ltb_lt. unfold expires, not_yet. rewrite H. reflexivity. Qed.

Lemma node_store_queue : forall ps txs c,
  queue (node_store ps txs c) = queue c /\ order (node_store ps txs c) = order c.
Proof.
  intros ps txs c. apply (fold_left_inv (fun c' => queue c' = queue c /\ order c' = order c)); [|auto].
  intros c' tx _ [<- <-]. unfold node_store_one. destruct (fst (read_tx ps (fst tx))); [auto | apply store_queue].
Qed.

Lemma node_queue_eligible : forall ps txs c t tx,
  cache_wf c -> In tx txs -> unfinalized ps (fst tx) ->
  eligible (fst (node_queue ps txs (c, t))) (fst tx).
Proof.
  intros ps txs c t tx Hwf Hin Hu.
  apply (fold_left_establish _ (fun st => cache_wf (fst st)) (fun st => eligible (fst st) (fst tx)) txs tx Hin);
    [| | |exact Hwf]; intros [c' t']; unfold node_queue_one; cbn [fst].
  - intros tx'. destruct (snd (read_tx ps (fst tx'))); [auto | apply wf_queue].
  - rewrite Hu. apply queue_tx_eligible.
  - intros tx'. destruct (snd (read_tx ps (fst tx'))); [auto | apply eligible_queue_mono].
Qed.
