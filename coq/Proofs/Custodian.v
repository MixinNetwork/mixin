(* Model/Custodian.v: ParseCustodianUpdateNodesExtra accepts exactly the encodings of
   well-formed updates ([parse_update_spec]) and validateCustodianUpdateNodes exactly
   the [accepted] ones, the price being a count of new and changed entries. *)
From Coq Require Import List ZArith NArith Bool Arith Lia ZifyN ZifyNat ZifyBool Sorted Permutation.
Require Import Mixin.Base.Res Mixin.Gen.Consts Mixin.Model.Fixed Mixin.Proofs.Fixed Mixin.Model.Custodian.
Require Import Mixin.Proofs.Res Mixin.Proofs.Lists.
Import ListNotations.
Local Open Scope nat_scope.

Lemma node_size_val : node_size = 353. Proof. reflexivity. Qed.
Lemma node_size_layout : node_size = 1 + 4 * 32 + 32 + 3 * 64. Proof. reflexivity. Qed.
Lemma min_count_val : min_count = 7. Proof. reflexivity. Qed.
Lemma new_price_val : new_price = (100 * 10 ^ 8)%Z. Proof. reflexivity. Qed.
Lemma update_price_val : update_price = (1 * 10 ^ 8)%Z. Proof. reflexivity. Qed.
Lemma new_price_pos : (0 < new_price)%Z. Proof. reflexivity. Qed.
Lemma update_price_pos : (0 < update_price)%Z. Proof. reflexivity. Qed.
Lemma node_size_pos : 0 < node_size. Proof. rewrite node_size_val. lia. Qed.

Lemma bytes_eqb_eq a b : bytes_eqb a b = true <-> a = b.
Proof.
  revert b; induction a as [|x a IH]; intros [|y b]; simpl; split; intro H; try congruence.
  - apply andb_true_iff in H as [H1 H2]. apply N.eqb_eq in H1. apply IH in H2. congruence.
  - inversion H; subst. rewrite N.eqb_refl. simpl. apply IH. reflexivity.
Qed.

Lemma bytes_eqb_refl a : bytes_eqb a a = true.
Proof. apply bytes_eqb_eq. reflexivity. Qed.

Lemma bytes_eqb_neq a b : bytes_eqb a b = false <-> a <> b.
Proof. rewrite <- not_true_iff_false, bytes_eqb_eq. reflexivity. Qed.

Lemma addr_eqb_eq (a b : addr) : addr_eqb a b = true <-> a = b.
Proof.
  unfold addr_eqb. destruct a as [a1 a2], b as [b1 b2]; simpl. rewrite andb_true_iff, !bytes_eqb_eq.
  split; [intros [-> ->]; reflexivity | intros [= -> ->]; auto].
Qed.

Lemma addr_eqb_refl a : addr_eqb a a = true.
Proof. apply addr_eqb_eq. reflexivity. Qed.

Lemma addr_eqb_neq a b : addr_eqb a b = false <-> a <> b.
Proof. rewrite <- not_true_iff_false, addr_eqb_eq. reflexivity. Qed.

Lemma mem_In k s : mem k s = true <-> In k s.
Proof.
  induction s as [|h t IH]; simpl; [split; [discriminate|tauto]|].
  rewrite orb_true_iff, bytes_eqb_eq, IH. split; intros [H|H]; auto.
Qed.

Lemma mem_not_In k s : mem k s = false <-> ~ In k s.
Proof. rewrite <- not_true_iff_false, mem_In. reflexivity. Qed.

Lemma bytes_compare_eq a b : bytes_compare a b = Eq <-> a = b.
Proof.
  revert b; induction a as [|x a IH]; intros [|y b]; simpl; try (split; congruence).
  destruct (N.compare_spec x y) as [->|L|L]; [rewrite IH; split; congruence| |];
    (split; [discriminate|intros [= -> _]; lia]).
Qed.

Lemma bytes_compare_antisym a b : bytes_compare b a = CompOpp (bytes_compare a b).
Proof.
  revert b; induction a as [|x a IH]; intros [|y b]; simpl; auto.
  rewrite (N.compare_antisym x y). destruct (x ?= y)%N; simpl; auto.
Qed.

Lemma bytes_lt_trans a b c :
  bytes_compare a b = Lt -> bytes_compare b c = Lt -> bytes_compare a c = Lt.
Proof.
  revert b c; induction a as [|x a IH]; intros [|y b] [|z c]; simpl; try congruence.
  destruct (N.compare_spec x y) as [->|L1|_], (N.compare_spec y z) as [->|L2|_]; try discriminate;
    [exact (IH b c)| | |]; intros _ _; rewrite ?(proj2 (N.compare_lt_iff _ _)) by lia; reflexivity.
Qed.

Lemma bytes_lt_irrefl a : bytes_compare a a <> Lt.
Proof. rewrite (proj2 (bytes_compare_eq a a) eq_refl). discriminate. Qed.

(* the order of the source's sort.Slice, bytes.Compare on the custodian spend keys, and its
   reflexive closure, which is what an insertion by [node_ltb] keeps *)
Definition nlt (a b : cnode) : Prop := bytes_compare (cn_cust_spend a) (cn_cust_spend b) = Lt.
Definition nle (a b : cnode) : Prop := bytes_compare (cn_cust_spend a) (cn_cust_spend b) <> Gt.

Lemma node_ltb_lt a b : node_ltb a b = true <-> nlt a b.
Proof.
  unfold node_ltb, bytes_ltb, nlt. destruct (bytes_compare _ _); split; congruence.
Qed.

Lemma node_ltb_false_le a b : node_ltb a b = false <-> nle b a.
Proof.
  unfold node_ltb, bytes_ltb, nle. rewrite (bytes_compare_antisym (cn_cust_spend a) (cn_cust_spend b)).
  destruct (bytes_compare _ _); simpl; split; congruence.
Qed.

Lemma nlt_nle a b : nlt a b -> nle a b.
Proof. unfold nlt, nle. intros ->. discriminate. Qed.

Lemma nle_cases a b : nle a b <-> nlt a b \/ cn_cust_spend a = cn_cust_spend b.
Proof.
  unfold nle, nlt. rewrite <- bytes_compare_eq. destruct (bytes_compare _ _); split; intro H; auto; try congruence.
  - destruct H; discriminate.
Qed.

Lemma nlt_trans a b c : nlt a b -> nlt b c -> nlt a c.
Proof. unfold nlt. apply bytes_lt_trans. Qed.

Lemma nle_trans a b c : nle a b -> nle b c -> nle a c.
Proof.
  rewrite !nle_cases. intros [H1|H1] [H2|H2].
  - left. eapply nlt_trans; eauto.
  - left. unfold nlt in *. rewrite <- H2. exact H1.
  - left. unfold nlt in *. rewrite H1. exact H2.
  - right. congruence.
Qed.

Lemma insert_perm n l : Permutation (insert_node n l) (n :: l).
Proof.
  induction l as [|h t IH]; simpl; [reflexivity|].
  destruct (node_ltb n h); [reflexivity|].
  rewrite IH. apply perm_swap.
Qed.

Lemma sort_perm l : Permutation (sort_nodes l) l.
Proof.
  induction l as [|h t IH]; simpl; [reflexivity|].
  rewrite insert_perm. constructor. exact IH.
Qed.

Lemma insert_sorted n l : StronglySorted nle l -> StronglySorted nle (insert_node n l).
Proof.
  induction l as [|h t IH]; simpl; intro S.
  - constructor; constructor.
  - inversion S as [|? ? St Fh]; subst.
    destruct (node_ltb n h) eqn:E.
    + apply node_ltb_lt, nlt_nle in E. constructor; [exact S|].
      constructor; [exact E|]. eapply Forall_impl; [|exact Fh]. intros x Hx. eapply nle_trans; eauto.
    + apply node_ltb_false_le in E. constructor; [apply IH; exact St|].
      eapply Permutation_Forall; [symmetry; apply insert_perm|]. constructor; assumption.
Qed.

Lemma sort_sorted l : StronglySorted nle (sort_nodes l).
Proof. induction l as [|h t IH]; simpl; [constructor|]. apply insert_sorted. exact IH. Qed.

Lemma sorted_le_strict l :
  StronglySorted nle l -> NoDup (map cn_cust_spend l) -> StronglySorted nlt l.
Proof.
  induction l as [|h t IH]; intros S D; [constructor|].
  inversion S as [|? ? St Fh]; subst. simpl in D. inversion D as [|? ? Nin Dt]; subst.
  constructor; [apply IH; assumption|].
  rewrite Forall_forall in *. intros x Hx. specialize (Fh x Hx).
  apply nle_cases in Fh as [L|E]; [exact L|]. exfalso. apply Nin. rewrite E. apply in_map. exact Hx.
Qed.

Lemma sort_of_sorted l : StronglySorted nlt l -> sort_nodes l = l.
Proof.
  induction l as [|h t IH]; intro S; [reflexivity|].
  inversion S as [|? ? St Fh]; subst. simpl. rewrite (IH St).
  destruct t as [|h' t']; [reflexivity|]. simpl.
  inversion Fh as [|? ? L _]; subst. apply node_ltb_lt in L. rewrite L. reflexivity.
Qed.

Lemma sorted_strict_nodup l : StronglySorted nlt l -> NoDup (map cn_cust_spend l).
Proof.
  induction l as [|h t IH]; intro S; simpl; [constructor|].
  inversion S as [|? ? St Fh]; subst. constructor; [|apply IH; exact St].
  intro Hin. apply in_map_iff in Hin as [x [E Hx]]. rewrite Forall_forall in Fh.
  specialize (Fh x Hx). unfold nlt in Fh. rewrite E in Fh. exact (bytes_lt_irrefl _ Fh).
Qed.

(* Any correct sort agrees with the insertion sort when keys are distinct:
   a strictly sorted list is determined by its elements.  This is why the
   unstable sort.Slice can be modelled by [sort_nodes]. *)
Lemma sorted_perm_unique l1 l2 :
  StronglySorted nlt l1 -> StronglySorted nlt l2 -> Permutation l1 l2 -> l1 = l2.
Proof.
  intros S1 S2 P. apply (StronglySorted_unique nlt); [|exact P|exact S1|exact S2].
  intros a b _ _ Hab Hba. destruct (bytes_lt_irrefl _ (nlt_trans _ _ _ Hab Hba)).
Qed.

Lemma slice_length lo hi b : length (slice lo hi b) = Nat.min (hi - lo) (length b - lo).
Proof. unfold slice. rewrite firstn_length, skipn_length. reflexivity. Qed.

Lemma skipn_slice lo hi (b : bytes) : lo <= hi -> skipn lo b = slice lo hi b ++ skipn hi b.
Proof.
  intro L. unfold slice. rewrite <- (firstn_skipn (hi - lo) (skipn lo b)) at 1.
  rewrite skipn_skipn. do 2 f_equal. lia.
Qed.

(* the side condition is a boolean so that [reflexivity] settles it on numerals *)
Lemma slice_app_skip {p r : bytes} {k lo hi} :
  length p = k -> (k <=? lo) = true -> slice lo hi (p ++ r) = slice (lo - k) (hi - k) r.
Proof.
  intros <- L. apply Nat.leb_le in L. unfold slice. rewrite skipn_app, skipn_all2 by exact L. cbn [app]. f_equal. lia.
Qed.

Lemma slice_app_take (x r : bytes) lo hi : lo = 0 -> hi = length x -> slice lo hi (x ++ r) = x.
Proof. intros -> ->. apply firstn_exact. lia. Qed.

Lemma concat_length_fixed (k : nat) (l : list bytes) :
  Forall (fun c => length c = k) l -> length (concat l) = length l * k.
Proof.
  induction 1 as [|a t Ha _ IH]; simpl; [reflexivity|]. rewrite app_length, IH, Ha. reflexivity.
Qed.

Lemma chunk_length k cnt b : length (chunk k cnt b) = cnt.
Proof. revert b; induction cnt; simpl; intros; [reflexivity|]. rewrite IHcnt. reflexivity. Qed.

Lemma chunk_concat k cnt b : length b = cnt * k -> concat (chunk k cnt b) = b.
Proof.
  revert b; induction cnt as [|c IH]; simpl; intros b L.
  - destruct b; [reflexivity|discriminate].
  - rewrite IH; [apply firstn_skipn|]. rewrite skipn_length. lia.
Qed.

Lemma chunk_of_concat k (cs : list bytes) :
  Forall (fun c => length c = k) cs -> chunk k (length cs) (concat cs) = cs.
Proof.
  induction 1 as [|a t Ha _ IH]; simpl; [reflexivity|].
  rewrite (firstn_exact _ _ _ Ha), (skipn_exact _ _ _ Ha), IH. reflexivity.
Qed.

Lemma chunk_all_len k cnt b : length b = cnt * k -> Forall (fun c => length c = k) (chunk k cnt b).
Proof.
  revert b; induction cnt as [|c IH]; simpl; intros b L; constructor.
  - rewrite firstn_length. lia.
  - apply IH. rewrite skipn_length. lia.
Qed.

Lemma split4 (e : bytes) : 128 <= length e ->
  e = slice 0 32 e ++ slice 32 64 e ++ slice 64 (length e - 64) e ++ skipn (length e - 64) e.
Proof.
  intro L. change e with (skipn 0 e) at 1.
  rewrite (skipn_slice 0 32), (skipn_slice 32 64), (skipn_slice 64 (length e - 64)) by lia. reflexivity.
Qed.

Lemma split4_inv (a b c d : bytes) :
  length a = 32 -> length b = 32 -> length d = 64 ->
  let e := a ++ b ++ c ++ d in
  slice 0 32 e = a /\ slice 32 64 e = b /\ slice 64 (length e - 64) e = c /\ skipn (length e - 64) e = d /\
  length e = 128 + length c.
Proof.
  intros La Lb Ld e.
  assert (Le : length e = 128 + length c) by (unfold e; rewrite !app_length; lia).
  rewrite Le. unfold e. repeat split.
  - apply slice_app_take; auto.
  - rewrite (slice_app_skip La) by reflexivity. apply slice_app_take; auto.
  - rewrite (slice_app_skip La), (slice_app_skip Lb) by reflexivity. apply slice_app_take; lia.
  - rewrite !app_assoc. apply skipn_exact. rewrite !app_length. lia.
Qed.

Definition node_shape (n : cnode) : Prop :=
  length (cn_extra n) = node_size /\ nth 0 (cn_extra n) 0%N = action_update /\
  cn_cust_spend n = slice 1 33 (cn_extra n) /\ cn_cust_view n = slice 33 65 (cn_extra n) /\
  cn_payee_spend n = slice 65 97 (cn_extra n) /\ cn_payee_view n = slice 97 129 (cn_extra n).

(* what parseCustodianNode reads off [e]; named so that the offsets stay folded in the proofs *)
Definition node_of (e : bytes) : cnode :=
  {| cn_cust_spend := slice 1 33 e; cn_cust_view := slice 33 65 e;
     cn_payee_spend := slice 65 97 e; cn_payee_view := slice 97 129 e; cn_extra := e |}.

Lemma node_shape_of n :
  node_shape n <->
  length (cn_extra n) = node_size /\ nth 0 (cn_extra n) 0%N = action_update /\ n = node_of (cn_extra n).
Proof.
  unfold node_shape. split.
  - intros (L & A & E1 & E2 & E3 & E4). repeat split; auto. destruct n. unfold node_of. f_equal; assumption.
  - intros (L & A & E). rewrite E. repeat split; assumption.
Qed.

Lemma node_shape_inj a b : node_shape a -> node_shape b -> cn_extra a = cn_extra b -> a = b.
Proof.
  intros (_ & _ & ->)%node_shape_of (_ & _ & ->)%node_shape_of E. cbn [node_of cn_extra] in E. rewrite E. reflexivity.
Qed.

Lemma shape_len l : Forall node_shape l -> Forall (fun c => length c = node_size) (map cn_extra l).
Proof. intro F. apply Forall_map. eapply Forall_impl; [|exact F]. intros n S. apply S. Qed.

Lemma extras_inj l1 : forall l2, Forall node_shape l1 -> Forall node_shape l2 ->
  concat (map cn_extra l1) = concat (map cn_extra l2) -> l1 = l2.
Proof.
  pose proof node_size_pos as NP.
  induction l1 as [|a t IH]; intros [|b t2] F1 F2 E; cbn [map concat] in E; [reflexivity| | |].
  - inversion F2 as [|? ? [Lb _] _]. apply (f_equal (@length _)) in E. rewrite app_length, Lb in E. cbn [length] in E. lia.
  - inversion F1 as [|? ? [La _] _]. apply (f_equal (@length _)) in E. rewrite app_length, La in E. cbn [length] in E. lia.
  - inversion F1 as [|? ? Sa Ft]; inversion F2 as [|? ? Sb Ft2]; subst.
    apply app_inj_len in E as [Ea Et]; [|rewrite (proj1 Sa), (proj1 Sb); reflexivity].
    f_equal; [exact (node_shape_inj _ _ Sa Sb Ea)|exact (IH _ Ft Ft2 Et)].
Qed.

Section WithVerify.
Variable verify : bytes -> bytes -> bytes -> bool.

(* what (cn *CustodianNode) validate asks of an entry *)
Definition node_signed (n : cnode) : Prop :=
  cn_payee_spend n <> cn_cust_spend n /\
  verify (cn_payee_spend n) (slice 0 161 (cn_extra n)) (slice 225 289 (cn_extra n)) = true /\
  verify (cn_cust_spend n) (slice 0 161 (cn_extra n)) (slice 289 node_size (cn_extra n)) = true.

Definition node_ok (genesis : bool) (n : cnode) : Prop :=
  node_shape n /\ (genesis = false -> node_signed n).

Lemma validate_node_cases n :
  (validate_node verify n = Ok tt /\ node_signed n) \/ (validate_node verify n = Err /\ ~ node_signed n).
Proof.
  unfold validate_node, node_signed.
  generalize (slice 0 161 (cn_extra n)), (slice 225 289 (cn_extra n)), (slice 289 node_size (cn_extra n)).
  intros m s1 s2. cbv zeta.
  destruct (bytes_eqb _ _) eqn:E1; [apply bytes_eqb_eq in E1; right; split; [reflexivity|tauto]|].
  apply bytes_eqb_neq in E1.
  destruct (verify (cn_payee_spend n) m s1); [|right; split; [reflexivity|intros (_ & H & _); discriminate H]].
  destruct (verify (cn_cust_spend n) m s2); [left; auto|right; split; [reflexivity|intros (_ & _ & H); discriminate H]].
Qed.

Lemma parse_node_spec g e n : parse_node verify g e = Ok n <-> cn_extra n = e /\ node_ok g n.
Proof.
  unfold parse_node, node_ok. fold (node_of e). split.
  - destruct (Nat.eqb_spec (length e) node_size) as [E1|]; [|discriminate].
    destruct (N.eqb_spec (nth 0 e 0%N) action_update) as [E2|]; [|discriminate]. cbn [negb].
    assert (Sh : node_shape (node_of e)) by (apply node_shape_of; auto).
    destruct (validate_node_cases (node_of e)) as [[-> S]|[-> _]].
    + intros [= <-]. auto.
    + destruct g; [|discriminate]. intros [= <-]. split; [reflexivity|]. split; [exact Sh|discriminate].
  - intros (<- & (L & A & En)%node_shape_of & Sg). revert L A En Sg. generalize (cn_extra n) as e'.
    intros e' L A -> Sg. rewrite L, A, Nat.eqb_refl, N.eqb_refl. cbn [negb].
    destruct (validate_node_cases (node_of e')) as [[-> _]|[-> NS]]; [reflexivity|].
    destruct g; [reflexivity|]. destruct (NS (Sg eq_refl)).
Qed.

Lemma parse_node_no_panic g e : parse_node verify g e <> Panic.
Proof.
  unfold parse_node. fold (node_of e). destruct (negb _); [discriminate|]. destruct (negb _); [discriminate|].
  destruct (validate_node_cases (node_of e)) as [[-> _]|[-> _]]; [|destruct g]; discriminate.
Qed.

(* [fresh seen ns]: what the uniqueKeys map enforces, entry after entry *)
Fixpoint fresh (seen : list bytes) (ns : list cnode) : Prop :=
  match ns with
  | [] => True
  | n :: t =>
      ~ In (cn_payee_spend n) seen /\ ~ In (cn_cust_spend n) seen /\
      fresh (cn_cust_view n :: cn_cust_spend n :: cn_payee_view n :: cn_payee_spend n :: seen) t
  end.

Lemma node_ok_shape g l : Forall (node_ok g) l -> Forall node_shape l.
Proof. apply Forall_impl. intros n [S _]. exact S. Qed.

Lemma parse_nodes_spec g chunks seen ns :
  parse_nodes verify g chunks seen = Ok ns <->
  map cn_extra ns = chunks /\ Forall (node_ok g) ns /\ fresh seen ns.
Proof.
  split.
  - revert seen ns; induction chunks as [|c rest IH]; intros seen ns H; cbn [parse_nodes] in H.
    + injection H as <-. repeat split. constructor.
    + apply bind_ok in H as (n & Hn & H). destruct (_ || _) eqn:EM; [discriminate H|].
      apply bind_ok in H as (ns' & Hr & [= <-]). apply parse_node_spec in Hn as [<- On].
      apply IH in Hr as (<- & F & Fr). apply orb_false_iff in EM as [M1 M2]. apply mem_not_In in M1, M2.
      repeat split; auto.
  - intros (<- & F & Fr). revert seen Fr; induction F as [|n t On _ IH]; intros seen Fr; [reflexivity|].
    destruct Fr as (N1 & N2 & Fr). apply mem_not_In in N1, N2. cbn [map parse_nodes].
    rewrite (proj2 (parse_node_spec g _ n) (conj eq_refl On)). cbn [bind].
    rewrite N1, N2, (IH _ Fr). reflexivity.
Qed.

Lemma parse_nodes_no_panic g chunks seen : parse_nodes verify g chunks seen <> Panic.
Proof.
  revert seen; induction chunks as [|c rest IH]; intro seen; cbn [parse_nodes]; [discriminate|].
  apply bind_not_panic; [apply parse_node_no_panic|intros n _]. destruct (_ || _); [discriminate|].
  apply bind_not_panic; [apply IH|discriminate].
Qed.

Lemma fresh_weaken seen seen' ns : incl seen' seen -> fresh seen ns -> fresh seen' ns.
Proof using verify.
  revert seen seen'; induction ns as [|n t IH]; intros seen seen' I; simpl; [auto|].
  intros (N1 & N2 & Fr). repeat split; auto.
  eapply IH; [|exact Fr]. exact (incl_app_app (incl_refl [_; _; _; _]) I).
Qed.

Lemma fresh_not_in seen ns k : fresh seen ns -> In k seen ->
  ~ In k (map cn_cust_spend ns) /\ ~ In k (map cn_payee_spend ns).
Proof.
  revert seen; induction ns as [|n t IH]; intros seen Fr Hk; simpl; [split; intros []|].
  destruct Fr as (N1 & N2 & Fr). destruct (IH _ Fr) as [I1 I2]; [do 4 right; exact Hk|].
  split; intros [E|H]; try contradiction; subst; contradiction.
Qed.

Definition spend_keys (ns : list cnode) : list bytes :=
  flat_map (fun n => [cn_payee_spend n; cn_cust_spend n]) ns.

Lemma fresh_spend_keys_nodup seen ns :
  fresh seen ns -> Forall (fun n => cn_payee_spend n <> cn_cust_spend n) ns -> NoDup (spend_keys ns).
Proof.
  revert seen; induction ns as [|n t IH]; intros seen Fr F; simpl; [constructor|].
  destruct Fr as (_ & _ & Fr). inversion F as [|? ? Fn Ft]; subst.
  destruct (fresh_not_in _ _ (cn_payee_spend n) Fr) as [A1 A2]; [do 3 right; left; reflexivity|].
  destruct (fresh_not_in _ _ (cn_cust_spend n) Fr) as [B1 B2]; [right; left; reflexivity|].
  assert (Hk : forall k, ~ In k (map cn_cust_spend t) -> ~ In k (map cn_payee_spend t) -> ~ In k (spend_keys t)).
  { intros k H1 H2 H. apply in_flat_map in H as [m [Hm [<-|[<-|[]]]]]; [apply H2|apply H1]; apply in_map, Hm. }
  constructor; [intros [E|H]; [congruence|exact (Hk _ A1 A2 H)]|].
  constructor; [exact (Hk _ B1 B2)|exact (IH _ Fr Ft)].
Qed.

Lemma fresh_cust_nodup seen ns : fresh seen ns -> NoDup (map cn_cust_spend ns).
Proof.
  revert seen; induction ns as [|n t IH]; intros seen Fr; simpl; [constructor|].
  destruct Fr as (_ & _ & Fr). constructor; [|exact (IH _ Fr)].
  apply (fresh_not_in _ _ (cn_cust_spend n) Fr). right. left. reflexivity.
Qed.

Definition update_wf (genesis : bool) (u : update) : Prop :=
  length (fst (u_cust u)) = 32 /\ length (snd (u_cust u)) = 32 /\ length (u_sig u) = 64 /\
  min_count <= length (u_nodes u) /\
  Forall (node_ok genesis) (u_nodes u) /\
  fresh [] (u_nodes u) /\
  StronglySorted nlt (u_nodes u).

Theorem parse_update_spec g extra u :
  parse_update verify g extra = Ok u <-> extra = encode_update u /\ update_wf g u.
Proof.
  unfold parse_update, encode_update, update_wf. pose proof node_size_pos as NP. split.
  - destruct (Nat.ltb_spec (length extra) (64 + node_size * min_count + 64)) as [|E1]; [discriminate|].
    set (body := slice 64 (length extra - 64) extra).
    assert (Lb : length body = length extra - 128) by (unfold body; rewrite slice_length; lia).
    destruct (Nat.eqb_spec (length body mod node_size) 0) as [E2|]; [|discriminate]. cbn [negb]. intros H.
    apply bind_ok in H as (l & E3 & H). destruct (bytes_eqb body _) eqn:E4; [|discriminate H].
    injection H as <-. cbn [u_cust u_nodes u_sig fst snd].
    apply bytes_eqb_eq in E4. apply parse_nodes_spec in E3 as (Em & F & Fr).
    assert (Ll : length l = length body / node_size) by (rewrite <- (map_length cn_extra), Em; apply chunk_length).
    assert (Lc : length body = length body / node_size * node_size)
      by (rewrite Nat.mul_comm; apply Nat.div_exact; [lia|exact E2]).
    (* the entries were already in order: sorted again they still concatenate to the body they were cut from *)
    assert (Es : sort_nodes l = l).
    { apply extras_inj; [eapply Permutation_Forall; [symmetry; apply sort_perm|]| |]; try exact (node_ok_shape _ _ F).
      rewrite <- E4, Em. symmetry. apply chunk_concat, Lc. }
    rewrite Es in *. rewrite <- E4, !slice_length, skipn_length.
    split; [apply split4; lia|]. split; [lia|]. split; [lia|]. split; [lia|].
    split; [rewrite Ll; apply Nat.div_le_lower_bound; lia|]. split; [exact F|]. split; [exact Fr|].
    apply sorted_le_strict; [rewrite <- Es; apply sort_sorted|exact (fresh_cust_nodup _ _ Fr)].
  - intros (-> & La & Lb & Ld & Lm & F & Fr & S).
    destruct u as [[a b] nodes d]. cbn [fst snd u_cust u_nodes u_sig] in *.
    pose proof (shape_len _ (node_ok_shape _ _ F)) as Fl.
    destruct (split4_inv a b (concat (map cn_extra nodes)) d La Lb Ld) as (-> & -> & -> & -> & ->).
    rewrite (concat_length_fixed node_size), map_length by exact Fl.
    destruct (Nat.ltb_spec (128 + length nodes * node_size) (64 + node_size * min_count + 64)); [nia|].
    rewrite Nat.mod_mul, Nat.div_mul by lia. cbn [Nat.eqb negb].
    rewrite <- (map_length cn_extra nodes) at 1. rewrite chunk_of_concat by exact Fl.
    rewrite (proj2 (parse_nodes_spec g _ [] nodes)) by auto. cbn [bind].
    rewrite (sort_of_sorted _ S), bytes_eqb_refl. reflexivity.
Qed.

Lemma parse_update_no_panic g extra : parse_update verify g extra <> Panic.
Proof.
  unfold parse_update. destruct (length extra <? _); [discriminate|]. destruct (negb _); [discriminate|].
  apply bind_not_panic; [apply parse_nodes_no_panic|intros l _]. destruct (bytes_eqb _ _); discriminate.
Qed.

End WithVerify.

Lemma addr_in_dec (k : addr) (l : list addr) : In k l \/ ~ In k l.
Proof.
  induction l as [|h t IH]; simpl; [tauto|].
  destruct (addr_eqb k h) eqn:E; [apply addr_eqb_eq in E; auto|]. apply addr_eqb_neq in E. intuition congruence.
Qed.

Lemma aset_in m k v : In k (map fst m) -> length (aset m k v) = length m.
Proof.
  induction m as [|[k' v'] t IH]; simpl; [tauto|].
  destruct (addr_eqb k k') eqn:E; [reflexivity|]. apply addr_eqb_neq in E.
  intros [H|H]; [congruence|]. simpl. rewrite IH; auto.
Qed.

Lemma aset_notin m k v : ~ In k (map fst m) -> aset m k v = m ++ [(k, v)].
Proof.
  induction m as [|[k' v'] t IH]; simpl; [reflexivity|].
  intro H. destruct (addr_eqb k k') eqn:E.
  - apply addr_eqb_eq in E. subst. tauto.
  - rewrite IH; [reflexivity|tauto].
Qed.

Definition fset (m : amap) (n : addr * addr) : amap := aset m (fst n) (snd n).

Lemma build_nodup l : forall m, NoDup (map fst (m ++ l)) -> fold_left fset l m = m ++ l.
Proof.
  induction l as [|n t IH]; intros m D; simpl; [rewrite app_nil_r; reflexivity|].
  unfold fset at 2. rewrite aset_notin, <- surjective_pairing.
  - rewrite IH; rewrite <- app_assoc; [reflexivity|exact D].
  - rewrite map_app in D. apply NoDup_remove_2 in D. intro X. apply D, in_or_app. auto.
Qed.

(* a repeated key makes the map shorter than the list *)
Lemma build_len l : forall m,
  length (fold_left fset l m) <= length m + length l /\
  (length (fold_left fset l m) = length m + length l -> NoDup (map fst m) -> NoDup (map fst (m ++ l))).
Proof.
  induction l as [|n t IH]; intro m; simpl; [rewrite app_nil_r; split; [lia|auto]|].
  destruct (IH (fset m n)) as [B N]. unfold fset in B, N |- *.
  destruct (addr_in_dec (fst n) (map fst m)) as [H|H].
  - rewrite (aset_in _ _ (snd n) H) in B. split; lia.
  - rewrite (aset_notin _ _ (snd n) H), <- surjective_pairing in B, N |- *.
    rewrite app_length in B, N. simpl in B, N. split; [lia|]. intros L D.
    rewrite <- app_assoc in N. apply N; [lia|]. rewrite map_app. apply NoDup_snoc; assumption.
Qed.

Lemma build_filter_nodup ns : NoDup (map fst ns) -> build_filter ns = ns.
Proof. exact (build_nodup ns []). Qed.

Lemma build_filter_len ns : length (build_filter ns) = length ns -> NoDup (map fst ns).
Proof. intro L. apply (build_len ns []); [exact L|constructor]. Qed.

Lemma aget_adel_other m k k' : k' <> k -> aget (adel m k) k' = aget m k'.
Proof.
  intro Hn. induction m as [|[k0 v0] t IH]; simpl; [reflexivity|].
  destruct (addr_eqb k k0) eqn:E1; simpl; rewrite IH; [|reflexivity].
  apply addr_eqb_eq in E1. subst k0. apply addr_eqb_neq in Hn. rewrite Hn. reflexivity.
Qed.

Lemma adel_in m k q : In q (adel m k) <-> In q m /\ fst q <> k.
Proof.
  induction m as [|[k0 v0] t IH]; simpl; [tauto|].
  destruct (addr_eqb k k0) eqn:E; simpl; rewrite IH.
  - apply addr_eqb_eq in E. subst k0. split; [tauto|]. intros [[<-|H] N]; [contradiction N; reflexivity|tauto].
  - apply addr_eqb_neq in E. split; [intros [<-|H]; [simpl; split; [auto|congruence]|tauto]|tauto].
Qed.

Definition del_all (f : amap) (nodes : list cnode) : amap :=
  fold_left (fun f n => adel f (cn_cust n)) nodes f.

Lemma del_all_in nodes f q : In q (del_all f nodes) <-> In q f /\ ~ In (fst q) (map cn_cust nodes).
Proof.
  unfold del_all. revert f; induction nodes as [|n t IH]; intro f; simpl; [tauto|].
  rewrite IH, adel_in. intuition congruence.
Qed.

Lemma del_all_nil f nodes : del_all f nodes = [] <-> incl (map fst f) (map cn_cust nodes).
Proof.
  split.
  - intros E k Hk. apply in_map_iff in Hk as [q [<- Hq]].
    destruct (addr_in_dec (fst q) (map cn_cust nodes)) as [I|I]; [exact I|].
    assert (Hin : In q (del_all f nodes)) by (apply del_all_in; auto). rewrite E in Hin. destruct Hin.
  - intro I. destruct (del_all f nodes) as [|q l] eqn:EQ; [reflexivity|].
    assert (Hq : In q (del_all f nodes)) by (rewrite EQ; left; reflexivity).
    apply del_all_in in Hq as [H1 H2]. destruct H2. apply I, in_map, H1.
Qed.

Definition node_price (prev : amap) (n : cnode) : Z :=
  match aget prev (cn_cust n) with
  | None => new_price
  | Some old => if addr_eqb old (cn_payee n) then 0%Z else update_price
  end.

Definition price (prev : amap) (nodes : list cnode) : Z :=
  fold_right (fun n acc => (node_price prev n + acc)%Z) 0%Z nodes.

Lemma node_price_nonneg prev n : (0 <= node_price prev n)%Z.
Proof.
  unfold node_price. pose proof new_price_pos. pose proof update_price_pos.
  destruct (aget prev _); [destruct (addr_eqb _ _)|]; lia.
Qed.

Lemma price_adel f k nodes : ~ In k (map cn_cust nodes) -> price (adel f k) nodes = price f nodes.
Proof.
  induction nodes as [|n t IH]; simpl; intro H; [reflexivity|].
  rewrite IH by tauto. f_equal. unfold node_price. rewrite aget_adel_other; [reflexivity|]. intro E. apply H. auto.
Qed.

Lemma price_loop_spec nodes : forall f total,
  (0 <= total)%Z -> NoDup (map cn_cust nodes) ->
  price_loop f nodes total = Ok (del_all f nodes, (total + price f nodes)%Z).
Proof.
  induction nodes as [|n t IH]; intros f total Ht D; simpl.
  - rewrite Z.add_0_r. reflexivity.
  - inversion D as [|? ? Nin Dt]; subst. pose proof (node_price_nonneg f n) as Hn.
    assert (E : match aget f (cn_cust n) with
                | None => i_add total new_price
                | Some old => if addr_eqb old (cn_payee n) then Ok total else i_add total update_price
                end = Ok (total + node_price f n)%Z).
    { unfold node_price. destruct (aget f (cn_cust n)) as [old|]; [destruct (addr_eqb old (cn_payee n))|].
      - rewrite Z.add_0_r. reflexivity.
      - apply i_add_ok; [exact Ht|exact update_price_pos].
      - apply i_add_ok; [exact Ht|exact new_price_pos]. }
    rewrite E. cbn [bind]. rewrite IH; [|lia|exact Dt]. rewrite price_adel by exact Nin.
    unfold del_all. simpl. do 2 f_equal. lia.
Qed.

(* the same price, said without a lookup: count the new and the changed entries *)
Definition is_new (prev : amap) (n : cnode) : bool :=
  negb (existsb (fun q => addr_eqb (cn_cust n) (fst q)) prev).
Definition is_changed (prev : amap) (n : cnode) : bool :=
  existsb (fun q => addr_eqb (cn_cust n) (fst q) && negb (addr_eqb (snd q) (cn_payee n))) prev.

Lemma node_price_as_count prev n : NoDup (map fst prev) ->
  node_price prev n = if is_new prev n then new_price else if is_changed prev n then update_price else 0%Z.
Proof.
  unfold node_price, is_new, is_changed. induction prev as [|[k v] t IH]; simpl; intro D; [reflexivity|].
  inversion D as [|? ? Nin Dt]; subst.
  destruct (addr_eqb (cn_cust n) k) eqn:E; simpl; [|exact (IH Dt)].
  apply addr_eqb_eq in E. subst k.
  assert (X : existsb (fun q => addr_eqb (cn_cust n) (fst q) && negb (addr_eqb (snd q) (cn_payee n))) t = false).
  { apply not_true_is_false. intro X. apply existsb_exists in X as [q [Hq Hb]].
    apply andb_true_iff in Hb as [Hb _]. apply addr_eqb_eq in Hb. apply Nin. rewrite Hb. apply in_map, Hq. }
  rewrite X, orb_false_r. destruct (addr_eqb v (cn_payee n)); reflexivity.
Qed.

Lemma price_as_count prev nodes : NoDup (map fst prev) ->
  price prev nodes =
  (new_price * Z.of_nat (length (filter (is_new prev) nodes))
   + update_price * Z.of_nat (length (filter (fun n => negb (is_new prev n) && is_changed prev n) nodes)))%Z.
Proof.
  intro D. induction nodes as [|n t IH]; [cbn [filter length price fold_right Z.of_nat]; ring|].
  cbn [price fold_right filter]. fold (price prev t). rewrite IH, (node_price_as_count _ _ D).
  destruct (is_new prev n); cbn [negb andb length].
  - rewrite Nat2Z.inj_succ. ring.
  - destruct (is_changed prev n); cbn [length]; [rewrite Nat2Z.inj_succ|]; ring.
Qed.

Lemma cust_nodup nodes : NoDup (map cn_cust_spend nodes) -> NoDup (map cn_cust nodes).
Proof. intro D. apply (NoDup_map_inv fst). rewrite map_map. exact D. Qed.

Lemma price_loop_wf verify g u prev :
  update_wf verify g u -> NoDup (map fst prev) ->
  price_loop (build_filter prev) (u_nodes u) 0 = Ok (del_all prev (u_nodes u), price prev (u_nodes u)).
Proof.
  intros (_ & _ & _ & _ & _ & Fr & _) D. rewrite (build_filter_nodup _ D).
  apply (price_loop_spec (u_nodes u) prev 0%Z); [lia|]. exact (cust_nodup _ (fresh_cust_nodup _ _ Fr)).
Qed.

Lemma encode_without_sig u :
  length (u_sig u) = 64 ->
  firstn (length (encode_update u) - 64) (encode_update u) =
  fst (u_cust u) ++ snd (u_cust u) ++ concat (map cn_extra (u_nodes u)).
Proof.
  intro L. unfold encode_update. rewrite !app_assoc. apply firstn_exact. rewrite !app_length. lia.
Qed.

Section Validate.
Variable verify : bytes -> bytes -> bytes -> bool.

(* What validateCustodianUpdateNodes accepts.  [NoDup]: on a previous state with a repeated
   custodian address the source panics.  The last clause is the test it makes only when the
   update keeps the custodian address. *)
Definition accepted (tx : txshape) (extra : bytes) (store : store_res) : Prop :=
  exists out u prev,
    (Consts.CusTxVersionHashSignature <= t_version tx)%Z /\ t_asset tx = Consts.CusXINAssetId /\
    t_outputs tx = [out] /\ o_type out = Consts.CusOutputTypeCustodianUpdateNodes /\
    o_nkeys out = 1 /\ o_script out = storage_script /\
    store = StoreSome prev /\
    extra = encode_update u /\ update_wf verify false u /\
    verify (fst (p_cust prev))
           (fst (u_cust u) ++ snd (u_cust u) ++ concat (map cn_extra (u_nodes u))) (u_sig u) = true /\
    NoDup (map fst (p_nodes prev)) /\
    (price (p_nodes prev) (u_nodes u) <= o_amount out)%Z /\
    (u_cust u = p_cust prev ->
       length (p_nodes prev) = length (u_nodes u) /\
       incl (map fst (p_nodes prev)) (map cn_cust (u_nodes u))).

Theorem validate_update_accept tx extra store :
  validate_update verify tx extra store = Ok tt <-> accepted tx extra store.
Proof.
  unfold validate_update, accepted. split.
  - destruct (Z.ltb_spec (t_version tx) Consts.CusTxVersionHashSignature) as [|E1]; [discriminate|].
    destruct (N.eqb_spec (t_asset tx) Consts.CusXINAssetId) as [E2|]; [|discriminate].
    destruct (t_outputs tx) as [|out [|o2 os]]; try discriminate.
    destruct (Z.eqb_spec (o_type out) Consts.CusOutputTypeCustodianUpdateNodes) as [E3|]; [|discriminate].
    destruct (Nat.eqb_spec (o_nkeys out) 1) as [E4|]; [|discriminate].
    destruct (bytes_eqb (o_script out) storage_script) eqn:E5; [|discriminate]. apply bytes_eqb_eq in E5.
    cbn [negb orb]. intros H. apply bind_ok in H as (u & EP & H). apply parse_update_spec in EP as [Ee W].
    destruct (length (u_nodes u) <? min_count); [discriminate H|].
    destruct store as [| |prev]; try discriminate H.
    destruct (verify (fst (p_cust prev)) _ (u_sig u)) eqn:E7; [|discriminate H].
    destruct (Nat.eqb_spec (length (build_filter (p_nodes prev))) (length (p_nodes prev))) as [D%build_filter_len|];
      [|discriminate H].
    cbn [negb] in H. rewrite (price_loop_wf _ _ _ _ W D) in H. cbn [bind] in H. pose proof W as (_ & _ & Ls & _).
    rewrite i_cmp_neg in H. destruct (Z.ltb_spec (o_amount out) (price (p_nodes prev) (u_nodes u))) as [|P]; [discriminate H|].
    rewrite Ee, (encode_without_sig u Ls) in E7. exists out, u, prev.
    repeat (split; [solve [auto]|]).
    intro Ec. rewrite (proj2 (addr_eqb_eq _ _) Ec) in H. cbn [negb] in H.
    destruct (Nat.eqb_spec (length (del_all (p_nodes prev) (u_nodes u))) 0) as [E10|]; [|discriminate H].
    destruct (Nat.eqb_spec (length (p_nodes prev)) (length (u_nodes u))) as [E11|]; [|discriminate H].
    split; [exact E11|]. apply del_all_nil, length_zero_iff_nil, E10.
  - intros (out & u & prev & V1 & V2 & V3 & V4 & V5 & V6 & -> & -> & W & A & D & P & R).
    pose proof W as (_ & _ & Ls & Lm & _).
    apply Z.ltb_ge in V1. rewrite V1, V2, N.eqb_refl, V3, V4, Z.eqb_refl, V5, V6, bytes_eqb_refl. cbn [negb orb Nat.eqb].
    rewrite (proj2 (parse_update_spec verify false _ u) (conj eq_refl W)). cbn [bind].
    apply Nat.ltb_ge in Lm. rewrite Lm, (encode_without_sig u Ls), A, (price_loop_wf _ _ _ _ W D), (build_filter_nodup _ D), Nat.eqb_refl.
    cbn [negb bind].
    rewrite i_cmp_neg. apply Z.ltb_ge in P. rewrite P.
    destruct (addr_eqb (u_cust u) (p_cust prev)) eqn:EA; [|reflexivity].
    apply addr_eqb_eq in EA. destruct (R EA) as [R1 R2].
    rewrite R1, Nat.eqb_refl, (proj2 (del_all_nil _ _) R2). reflexivity.
Qed.

End Validate.

Definition update_shaped (u : update) : Prop :=
  length (fst (u_cust u)) = 32 /\ length (snd (u_cust u)) = 32 /\ length (u_sig u) = 64 /\
  Forall node_shape (u_nodes u).

Lemma encode_update_inj u u' :
  update_shaped u -> update_shaped u' -> encode_update u = encode_update u' -> u = u'.
Proof.
  intros (A1 & A2 & A3 & A4) (B1 & B2 & B3 & B4) E. unfold encode_update in E.
  destruct u as [[a b] ns s], u' as [[a' b'] ns' s']; cbn [fst snd u_cust u_nodes u_sig] in *.
  apply app_inj_len in E as [-> E]; [|congruence].
  apply app_inj_len in E as [-> E]; [|congruence].
  assert (L : length (concat (map cn_extra ns)) = length (concat (map cn_extra ns'))).
  { apply (f_equal (@length N)) in E. rewrite !app_length in E. lia. }
  apply app_inj_len in E as [E ->]; [|exact L]. apply extras_inj in E as ->; auto.
Qed.

Lemma wf_shaped verify g u : update_wf verify g u -> update_shaped u.
Proof.
  intros (A & B & C & _ & F & _). repeat split; auto. eapply node_ok_shape. exact F.
Qed.

Lemma parse_rejects_unsorted verify g u :
  update_shaped u -> ~ StronglySorted nlt (u_nodes u) ->
  parse_update verify g (encode_update u) = Err.
Proof.
  intros Sh NS. destruct (parse_update verify g (encode_update u)) as [u'| |] eqn:E; [|reflexivity|].
  - exfalso. apply parse_update_spec in E as [Ee W].
    apply encode_update_inj in Ee as <-; [|exact Sh|exact (wf_shaped _ _ _ W)]. apply NS, W.
  - destruct (parse_update_no_panic _ _ _ E).
Qed.

Definition fields_wf (f : node_fields) : Prop :=
  length (fst (f_cust f)) = 32 /\ length (snd (f_cust f)) = 32 /\
  length (fst (f_payee f)) = 32 /\ length (snd (f_payee f)) = 32 /\
  length (f_node_id f) = 32 /\ length (f_signer_sig f) = 64 /\
  length (f_payee_sig f) = 64 /\ length (f_cust_sig f) = 64.

(* the 161 bytes EncodeCustodianNode hashes and signs *)
Definition signed_part (f : node_fields) : bytes :=
  [action_update] ++ fst (f_cust f) ++ snd (f_cust f) ++ fst (f_payee f) ++ snd (f_payee f) ++ f_node_id f.

Lemma encode_node_parses verify f :
  fields_wf f ->
  fst (f_payee f) <> fst (f_cust f) ->
  verify (fst (f_payee f)) (signed_part f) (f_payee_sig f) = true ->
  verify (fst (f_cust f)) (signed_part f) (f_cust_sig f) = true ->
  parse_node verify false (encode_node f) = Ok (cnode_of_fields f).
Proof.
  intros (L1 & L2 & L3 & L4 & L5 & L6 & L7 & L8) Hne Vp Vc.
  destruct f as [[cs cv] [ps pv] id s1 s2 s3]; cbn [fst snd f_cust f_payee f_node_id f_signer_sig f_payee_sig f_cust_sig] in *.
  apply parse_node_spec. split; [reflexivity|].
  unfold node_ok, node_shape, node_signed, signed_part, cnode_of_fields, encode_node in *.
  cbn [cn_extra cn_cust_spend cn_cust_view cn_payee_spend cn_payee_view fst snd f_cust f_payee f_node_id
       f_signer_sig f_payee_sig f_cust_sig] in *.
  set (a := [action_update]) in *. assert (La : length a = 1) by reflexivity.
  assert (S0 : slice 0 161 (a ++ cs ++ cv ++ ps ++ pv ++ id ++ s1 ++ s2 ++ s3) = a ++ cs ++ cv ++ ps ++ pv ++ id).
  { replace (a ++ cs ++ cv ++ ps ++ pv ++ id ++ s1 ++ s2 ++ s3)
      with ((a ++ cs ++ cv ++ ps ++ pv ++ id) ++ s1 ++ s2 ++ s3) by (rewrite <- !app_assoc; reflexivity).
    apply slice_app_take; [reflexivity|]. rewrite !app_length. lia. }
  rewrite S0. split; [|intros _]; repeat split; try assumption.
  - rewrite !app_length, node_size_val. lia.
  - symmetry. rewrite (slice_app_skip La) by reflexivity. apply slice_app_take; auto.
  - symmetry. rewrite (slice_app_skip La), (slice_app_skip L1) by reflexivity. apply slice_app_take; auto.
  - symmetry. rewrite (slice_app_skip La), (slice_app_skip L1), (slice_app_skip L2) by reflexivity. apply slice_app_take; auto.
  - symmetry. rewrite (slice_app_skip La), (slice_app_skip L1), (slice_app_skip L2), (slice_app_skip L3) by reflexivity. apply slice_app_take; auto.
  - rewrite (slice_app_skip La), (slice_app_skip L1), (slice_app_skip L2), (slice_app_skip L3), (slice_app_skip L4), (slice_app_skip L5), (slice_app_skip L6) by reflexivity.
    rewrite slice_app_take by auto. exact Vp.
  - rewrite (slice_app_skip La), (slice_app_skip L1), (slice_app_skip L2), (slice_app_skip L3), (slice_app_skip L4), (slice_app_skip L5), (slice_app_skip L6), (slice_app_skip L7) by reflexivity.
    rewrite <- (app_nil_r s3), slice_app_take by auto. exact Vc.
Qed.
