(* Lemmas about Model/Topology.v: the topology index is a strictly sorted map
   position -> snapshot hash, with distinct hashes and a faithful reverse index
   when debug is set; listing and lookup agree with it. *)
From Coq Require Import List ZArith NArith Bool Lia Permutation Sorted.
Require Import Mixin.Base.Res Mixin.Model.Topology Mixin.Proofs.Lists.
Import ListNotations.
Open Scope N_scope.

Definition positions (s : tstore) : list N := map fst (t_index s).
Definition hashes (s : tstore) : list N := map snd (t_index s).

(* write_snapshot refuses a hash that is stored already only under debug, hence
   the premise of ti_hashes and ti_rev *)
Record TInv (s : tstore) : Prop := mk_TInv {
  ti_sorted : StronglySorted N.lt (positions s);
  ti_hashes : debug = true -> NoDup (hashes s);
  ti_rev : debug = true -> forall h p, rev_get h (t_rev s) = Some p <-> In (p, h) (t_index s)
}.

Lemma ss_nodup (l : list N) : StronglySorted N.lt l -> NoDup l.
Proof.
  induction 1 as [|x l _ IH Hf]; constructor; [|exact IH].
  intros Hin. rewrite Forall_forall in Hf. specialize (Hf _ Hin). lia.
Qed.

Lemma index_get_some p g l : index_get p l = Some g -> In (p, g) l.
Proof.
  induction l as [|[q k] t IH]; cbn; [discriminate|].
  destruct (N.eqb_spec q p) as [->|_]; [intros [= ->]; left; reflexivity | right; apply IH; assumption].
Qed.

Lemma index_get_none p l : index_get p l = None <-> ~ In p (map fst l).
Proof.
  induction l as [|[q k] t IH]; cbn; [tauto|].
  destruct (N.eqb_spec q p) as [E|E]; [split; [discriminate | tauto] | rewrite IH; tauto].
Qed.

Lemma index_get_in p g l : NoDup (map fst l) -> In (p, g) l -> index_get p l = Some g.
Proof.
  intros Hnd Hin. destruct (index_get p l) as [g'|] eqn:E.
  - apply index_get_some in E. f_equal. exact (f_equal snd (NoDup_map_inj fst l _ _ Hnd E Hin eq_refl)).
  - apply index_get_none in E. destruct E. exact (in_map fst _ _ Hin).
Qed.

Lemma index_ins_perm p h l : Permutation ((p, h) :: l) (index_ins p h l).
Proof.
  induction l as [|[q k] t IH]; cbn; [reflexivity|].
  destruct (p <? q); [reflexivity|]. rewrite perm_swap. apply perm_skip. exact IH.
Qed.

Lemma index_ins_sorted p h l :
  StronglySorted N.lt (map fst l) -> ~ In p (map fst l) -> StronglySorted N.lt (map fst (index_ins p h l)).
Proof.
  induction l as [|[q k] t IH]; cbn; intros Hs Hni; [repeat constructor|].
  inversion Hs as [|? ? Hs' Hf]; subst. destruct (N.ltb_spec p q) as [E|E]; cbn.
  - constructor; [exact Hs|]. constructor; [exact E|]. eapply Forall_impl; [|exact Hf]. cbn. intros. lia.
  - constructor; [apply IH; tauto|].
    apply (Permutation_Forall (Permutation_map fst (index_ins_perm p h t))). constructor; [cbn; lia | exact Hf].
Qed.

Lemma stored_iff s hash : stored s hash = true <-> In hash (hashes s).
Proof.
  unfold stored, hashes. rewrite existsb_exists, in_map_iff.
  split; intros (e & H1 & H2); exists e; [apply N.eqb_eq in H2 | apply N.eqb_eq in H1]; auto.
Qed.

Lemma write_cases s pos hash :
  (write_snapshot s pos hash = Panic /\ (In pos (positions s) \/ debug = true /\ In hash (hashes s))) \/
  (write_snapshot s pos hash = Ok (mk_tstore (index_ins pos hash (t_index s)) ((hash, pos) :: t_rev s)) /\
   ~ In pos (positions s) /\ (debug = true -> ~ In hash (hashes s))).
Proof.
  unfold write_snapshot, write_topology. destruct (debug && stored s hash) eqn:Ed.
  - left. apply andb_prop in Ed as [Hd Hs%stored_iff]. auto.
  - destruct (index_get pos (t_index s)) eqn:Eg.
    + left. split; [reflexivity | left; exact (in_map fst _ _ (index_get_some _ _ _ Eg))].
    + right. split; [reflexivity|]. split; [apply index_get_none, Eg|].
      intros Hd Hin%stored_iff. rewrite Hd, Hin in Ed. discriminate Ed.
Qed.

Lemma write_ok s pos hash s' :
  TInv s -> write_snapshot s pos hash = Ok s' ->
  TInv s' /\ Permutation ((pos, hash) :: t_index s) (t_index s').
Proof.
  intros HI. destruct (write_cases s pos hash) as [[-> _]|(-> & Hfree & Hnh)]; [discriminate|]. intros [= <-].
  pose proof (index_ins_perm pos hash (t_index s)) as HP.
  split; [|exact HP]. constructor; cbn.
  - apply index_ins_sorted; [apply (ti_sorted _ HI)|exact Hfree].
  - intros Hd. apply (Permutation_NoDup (Permutation_map snd HP)).
    constructor; [apply Hnh; exact Hd|apply (ti_hashes _ HI Hd)].
  - (* the new pair heads the reverse index and shadows nothing, hash being new *)
    intros Hd h p. rewrite <- (Permutation_in' eq_refl HP). cbn [In]. rewrite <- (ti_rev _ HI Hd).
    destruct (N.eqb_spec hash h) as [->|E].
    + split; [intros [= ->]; left; reflexivity | intros [[= ->]|H]; [reflexivity|]].
      apply (ti_rev _ HI Hd) in H. destruct (Hnh Hd). exact (in_map snd _ _ H).
    + split; [right; assumption | intros [[= _ H]|H]; [contradiction | exact H]].
Qed.

Lemma wrun_inv ws : TInv (wrun ws).
Proof.
  apply (fold_left_inv TInv).
  - intros s w _ HI. unfold wstep. destruct (write_snapshot s (fst w) (snd w)) eqn:E; try exact HI.
    apply (write_ok _ _ _ _ HI E).
  - constructor; cbn; [constructor | constructor | intros _ h p; split; [discriminate | tauto]].
Qed.

Lemma seek_split off l :
  StronglySorted N.lt (map fst l) ->
  exists pre, l = pre ++ seek off l /\ Forall (fun e => fst e < off) pre /\ Forall (fun e => off <= fst e) (seek off l).
Proof.
  induction l as [|[q g] t IH]; cbn [seek map fst]; intros Hs.
  - exists []. repeat split; constructor.
  - inversion Hs as [|? ? Hs' Hf]; subst. destruct (N.ltb_spec q off) as [E|E].
    + destruct (IH Hs') as (pre & H1 & H2 & H3). exists ((q, g) :: pre).
      split; [cbn; f_equal; exact H1|]. split; [constructor; [exact E|exact H2]|exact H3].
    + exists []. split; [reflexivity|]. split; [constructor|]. constructor; [exact E|].
      rewrite Forall_map in Hf. eapply Forall_impl; [|exact Hf]. cbn. intros. lia.
Qed.

Theorem listing_thm s off cnt :
  TInv s ->
  (list_limit < cnt -> list_since s off cnt = Err) /\
  (cnt <= list_limit ->
   exists l pre post,
     list_since s off cnt = Ok l /\
     t_index s = pre ++ l ++ post /\
     Forall (fun e => fst e < off) pre /\
     Forall (fun e => off <= fst e) (l ++ post) /\
     StronglySorted N.lt (map fst l) /\
     N.of_nat (length l) <= cnt /\
     (post <> [] -> N.of_nat (length l) = cnt)).
Proof.
  intros HI. unfold list_since. split.
  - intros H. apply N.ltb_lt in H. rewrite H. reflexivity.
  - intros H. rewrite (proj2 (N.ltb_ge _ _) H).
    destruct (seek_split off (t_index s) (ti_sorted _ HI)) as (pre & H1 & H2 & H3).
    set (rest := seek off (t_index s)) in *.
    exists (firstn (N.to_nat cnt) rest), pre, (skipn (N.to_nat cnt) rest).
    rewrite firstn_skipn. repeat split; try assumption.
    + (* l is sorted, as a segment of the index *)
      pose proof (ti_sorted _ HI) as Hs. unfold positions in Hs.
      rewrite H1, <- (firstn_skipn (N.to_nat cnt) rest), !map_app in Hs.
      apply ss_app_inv, proj2, ss_app_inv, proj1 in Hs. exact Hs.
    + pose proof (firstn_le_length (N.to_nat cnt) rest). lia.
    + (* something is left behind only by a full listing *) intros Hne. rewrite firstn_length_le; [lia|].
      destruct (Nat.le_gt_cases (length rest) (N.to_nat cnt)) as [Hl|Hl]; [|lia].
      destruct Hne. apply skipn_all2, Hl.
Qed.

Lemma seek_at p h l :
  StronglySorted N.lt (map fst l) -> In (p, h) l -> exists rest, seek p l = (p, h) :: rest.
Proof.
  induction l as [|[q g] t IH]; cbn [seek map fst In]; intros Hs Hin; [destruct Hin|].
  inversion Hs as [|? ? Hs' Hf]; subst. destruct Hin as [[= -> ->]|Hin].
  - rewrite N.ltb_irrefl. eexists. reflexivity.
  - rewrite Forall_forall in Hf. specialize (Hf p (in_map fst _ _ Hin)).
    rewrite (proj2 (N.ltb_lt q p) Hf). apply IH; assumption.
Qed.

Lemma lookup_eq s h :
  TInv s -> debug = true ->
  lookup s h = match rev_get h (t_rev s) with Some p => Ok (Some (p, h)) | None => Ok None end.
Proof.
  intros HI Hd. unfold lookup. destruct (rev_get h (t_rev s)) as [p|] eqn:E; [|reflexivity].
  apply (ti_rev _ HI Hd) in E. rewrite (index_get_in p h _ (ss_nodup _ (ti_sorted _ HI)) E). reflexivity.
Qed.

Theorem lookup_thm s :
  TInv s -> debug = true ->
  (forall h, lookup s h <> Err) /\
  (forall h p g, lookup s h = Ok (Some (p, g)) ->
     g = h /\ In (p, h) (t_index s) /\ list_since s p 1 = Ok [(p, h)]) /\
  (forall h p, In (p, h) (t_index s) -> lookup s h = Ok (Some (p, h))) /\
  (forall h, ~ In h (hashes s) -> lookup s h = Ok None).
Proof.
  intros HI Hd. split; [|split; [|split]]; intros h.
  - rewrite (lookup_eq s h HI Hd). destruct (rev_get h (t_rev s)); discriminate.
  - intros p g H. rewrite (lookup_eq s h HI Hd) in H.
    destruct (rev_get h (t_rev s)) as [p'|] eqn:E; [|discriminate H]. injection H as -> <-.
    apply (ti_rev _ HI Hd) in E. split; [reflexivity|]. split; [exact E|].
    unfold list_since. cbn. destruct (seek_at p h _ (ti_sorted _ HI) E) as [rest ->]. reflexivity.
  - intros p Hin. rewrite (lookup_eq s h HI Hd), (proj2 (ti_rev _ HI Hd h p) Hin). reflexivity.
  - intros Hni. rewrite (lookup_eq s h HI Hd). destruct (rev_get h (t_rev s)) as [p|] eqn:E; [|reflexivity].
    apply (ti_rev _ HI Hd) in E. destruct Hni. exact (in_map snd _ _ E).
Qed.

Definition CInv (n : tnode) : Prop :=
  TInv (tn_store n) /\ Forall (fun p => p <= tn_seq n) (positions (tn_store n)).

Lemma last_pos_max l : StronglySorted N.lt (map fst l) -> Forall (fun p => p <= last_pos l) (map fst l).
Proof.
  induction l as [|[q g] t IH]; cbn [map fst]; intros Hs; [constructor|].
  inversion Hs as [|? ? Hs' Hf]; subst. destruct t as [|[q' g'] t']; [repeat constructor; cbn; lia|].
  specialize (IH Hs'). change (last_pos ((q, g) :: (q', g') :: t')) with (last_pos ((q', g') :: t')).
  constructor; [|exact IH]. apply Forall_inv in IH, Hf. cbn in *. lia.
Qed.

Theorem init_thm s n : TInv s -> topo_init s = Ok n -> tn_store n = s /\ CInv n.
Proof.
  (* the listing from the last position starts with an entry at or above it
     (seek_split), and no position exceeds the last one (last_pos_max) *)
  intros HI. unfold topo_init, last_snapshot.
  destruct (seek_split (last_pos (t_index s)) (t_index s) (ti_sorted _ HI)) as (_ & _ & _ & H3).
  destruct (seek _ _) as [|x rest]; [discriminate|].
  change (firstn 10 (x :: rest)) with (x :: firstn 9 rest). destruct (firstn 9 rest); [|discriminate].
  intros [= <-]. split; [reflexivity|]. split; [exact HI|]. cbn. apply Forall_inv in H3.
  eapply Forall_impl; [|exact (last_pos_max _ (ti_sorted _ HI))]. cbn. intros. lia.
Qed.

Theorem topo_write_thm n hash :
  CInv n -> tn_seq n + 1 < two64 ->
  let '(n', r) := topo_write n hash in
  CInv n' /\ tn_seq n' = tn_seq n + 1 /\
  match r with
  | Ok p => p = tn_seq n + 1 /\ ~ In p (positions (tn_store n)) /\
            Permutation ((p, hash) :: t_index (tn_store n)) (t_index (tn_store n'))
  | Err => False
  | Panic => debug = true /\ In hash (hashes (tn_store n)) /\ tn_store n' = tn_store n
  end.
Proof.
  intros [HI Hle] Hb. unfold topo_write. rewrite N.mod_small by exact Hb.
  assert (Hfree : ~ In (tn_seq n + 1) (positions (tn_store n))).
  { intros Hin. rewrite Forall_forall in Hle. specialize (Hle _ Hin). lia. }
  assert (Hle' : Forall (fun p => p <= tn_seq n + 1) (positions (tn_store n)))
    by (eapply Forall_impl; [|exact Hle]; cbn; intros; lia).
  destruct (write_cases (tn_store n) (tn_seq n + 1) hash) as [[E [Hin|[Hd Hh]]]|[E _]].
  - destruct (Hfree Hin).
  - rewrite E. cbn. split; [split; assumption | auto].
  - destruct (write_ok _ _ _ _ HI E) as [HI' HP]. rewrite E. cbn. split; [|split; [reflexivity|tauto]].
    split; [exact HI'|].
    apply (Permutation_Forall (Permutation_map fst HP)). constructor; [cbn; lia | exact Hle'].
Qed.

Fixpoint topo_run (n : tnode) (hs : list N) : tnode * list (res N) :=
  match hs with
  | [] => (n, [])
  | h :: hs' => let '(n1, r) := topo_write n h in
                let '(n2, rs) := topo_run n1 hs' in (n2, r :: rs)
  end.

Fixpoint assigned (rs : list (res N)) : list N :=
  match rs with
  | [] => []
  | Ok p :: rs' => p :: assigned rs'
  | _ :: rs' => assigned rs'
  end.

Theorem counter_thm hs : forall n,
  CInv n -> tn_seq n + N.of_nat (length hs) < two64 ->
  let '(n', rs) := topo_run n hs in
  CInv n' /\
  StronglySorted N.lt (assigned rs) /\
  Forall (fun p => tn_seq n < p /\ In p (positions (tn_store n'))) (assigned rs) /\
  (forall q, In q (positions (tn_store n)) -> In q (positions (tn_store n'))).
Proof.
  induction hs as [|h hs IH]; intros n HC Hb.
  - cbn. split; [exact HC|]. split; [constructor|]. split; [constructor|tauto].
  - cbn [topo_run]. cbn [length] in Hb.
    pose proof (topo_write_thm n h HC ltac:(lia)) as HW.
    destruct (topo_write n h) as [n1 r]. destruct HW as (HC1 & Hseq & Hr).
    specialize (IH n1 HC1 ltac:(lia)). destruct (topo_run n1 hs) as [n2 rs].
    destruct IH as (HC2 & Hs & Hf & Hkeep). rewrite Hseq in Hf.
    assert (Hf' : Forall (fun p => tn_seq n < p /\ In p (positions (tn_store n2))) (assigned rs))
      by (eapply Forall_impl; [|exact Hf]; cbn; intros p [? ?]; split; [lia | assumption]).
    split; [exact HC2|]. destruct r as [p| |]; cbn [assigned].
    + destruct Hr as (-> & _ & HP).
      assert (Hkeep1 : forall q, In q ((tn_seq n + 1) :: positions (tn_store n)) -> In q (positions (tn_store n2))).
      { intros q Hq. apply Hkeep. exact (Permutation_in _ (Permutation_map fst HP) Hq). }
      split; [|split].
      * constructor; [exact Hs|]. eapply Forall_impl; [|exact Hf]. cbn. tauto.
      * constructor; [|exact Hf']. split; [lia|]. apply Hkeep1. left. reflexivity.
      * intros q Hq. apply Hkeep1. right. exact Hq.
    + destruct Hr.
    + destruct Hr as (_ & _ & E). rewrite E in Hkeep. auto.
Qed.
