(* Lemmas about Model/Cosi.v: the mask as a set of signer indices, what
   CosiAggregateCommitment returns (sum, mask, independence of map order), a
   valid share as a Schnorr triple, and completeness of aggregate-then-verify. *)
From Coq Require Import List ZArith NArith Bool Lia Permutation FinFun.
Require Import Mixin.Base.Res Mixin.Gen.Consts Mixin.Model.Group Mixin.Model.Aggregate Mixin.Model.Cosi Mixin.Proofs.Lists.
Require Import Mixin.Proofs.Res Mixin.Proofs.Group Mixin.Proofs.Aggregate.
Import ListNotations.
Open Scope Z_scope.

Lemma mask_keys_testbit : forall m i,
  In i (mask_keys m) <-> 0 <= i < Z.of_nat mask_bits /\ N.testbit m (N.of_nat (Z.to_nat i)) = true.
Proof.
  intros m i. unfold mask_keys. rewrite in_map_iff. split.
  - intros (n & <- & Hn). apply filter_In in Hn. rewrite in_seq, Nat2Z.id in *. split; [lia | apply Hn].
  - intros (Hr & Hb). exists (Z.to_nat i). rewrite filter_In, in_seq. repeat split; (lia || exact Hb).
Qed.

Lemma mask_keys_range : forall m i, In i (mask_keys m) -> 0 <= i < Z.of_nat mask_bits.
Proof. intros m i Hi. apply mask_keys_testbit in Hi. apply Hi. Qed.

Lemma mask_keys_nodup : forall m, NoDup (mask_keys m).
Proof.
  intros m. apply Injective_map_NoDup; [intros x y; apply Nat2Z.inj | apply NoDup_filter, seq_NoDup].
Qed.

(* [mask_keys] is a filter over [seq 0 mask_bits]: it is never to be unfolded
   by cbn or conversion; the three lemmas above are its interface *)
#[global] Opaque mask_keys.

Lemma all_below_iff : forall n ks, all_below n ks = true <-> Forall (fun k => k < n) ks.
Proof.
  intros n ks. unfold all_below. rewrite forallb_forall, Forall_forall.
  split; intros Hf k Hk; apply Z.ltb_lt, Hf, Hk.
Qed.

Lemma assoc_in_nodup : forall {A} (t : list (Z * A)) i v,
  NoDup (map fst t) -> In (i, v) t -> assoc t i = Some v.
Proof.
  intros A t. induction t as [|[j w] t IH]; intros i v Hnd Hin; [destruct Hin|].
  cbn [map fst] in Hnd. apply NoDup_cons_iff in Hnd. destruct Hnd as [Hni Hnd]. cbn [assoc].
  destruct Hin as [[= -> ->]|Hin]; [rewrite Z.eqb_refl; reflexivity|].
  destruct (Z.eqb_spec i j) as [->|]; [|apply IH; assumption].
  destruct Hni. exact (in_map fst _ _ Hin).
Qed.

(* [point_ok] fails on a sum only at 0, the model's identity point *)
Lemma sum_identity_iff : forall l xs, 0 < l -> (point_ok l (fsum l xs) = false <-> cg l (zsum xs) 0).
Proof.
  intros l xs Hl. pose proof (fsum_range l xs Hl) as Hr. rewrite <- (fsum_cg l xs). split; intros Hz.
  - destruct (Z.eq_dec (fsum l xs) 0) as [->|]; [reflexivity|].
    rewrite (proj2 (point_ok_iff l _)) in Hz by lia. discriminate.
  - apply (cg_small l) in Hz; [|exact Hr | lia]. rewrite Hz. unfold point_ok. rewrite Z.ltb_irrefl. reflexivity.
Qed.

Section CosiProofs.
Variable l : Z.

Notation mk c := (mask_keys (c_mask c)).

Lemma cosi_public_key_eq : forall keys c,
  cosi_public_key l keys c =
  if signers_okb l keys (mk c) then Ok (fsum l (map snd (sel_of keys (mk c)))) else Err.
Proof.
  intros. unfold cosi_public_key, aggregate_public_key. rewrite collect_signers_eq.
  destruct (signers_okb l keys (mk c)); reflexivity.
Qed.

Lemma cosi_public_key_ok : forall keys c A, cosi_public_key l keys c = Ok A ->
  signers_okb l keys (mk c) = true /\ A = fsum l (map snd (sel_of keys (mk c))).
Proof.
  intros keys c A HA. rewrite cosi_public_key_eq in HA.
  destruct (signers_okb l keys (mk c)); [injection HA as <-; split; reflexivity | discriminate].
Qed.

Lemma signers_okb_all_below : forall keys c, signers_okb l keys (mk c) = true ->
  all_below (Z.of_nat (length keys)) (mk c) = true.
Proof.
  intros keys c Hb. apply signers_okb_iff in Hb. apply all_below_iff.
  eapply Forall_impl; [|apply Hb]. intros i Hi. apply Hi.
Qed.

Lemma index_outside_not_ok : forall keys c i,
  In i (mk c) -> Z.of_nat (length keys) <= i ->
  signers_okb l keys (mk c) = false /\ all_below (Z.of_nat (length keys)) (mk c) = false.
Proof.
  intros keys c i Hi Hge.
  assert (E : all_below (Z.of_nat (length keys)) (mk c) = false).
  { apply not_true_is_false. intros E. apply all_below_iff in E. rewrite Forall_forall in E.
    specialize (E i Hi). lia. }
  split; [|exact E]. apply not_true_is_false. intros Hb. apply signers_okb_all_below in Hb. congruence.
Qed.

Definition share_valid (keys : list Z) (c : cosi) (x : Z) (i s : Z) : Prop :=
  0 <= i /\
  exists r k, assoc (c_commits c) i = Some r /\ nth_error keys (Z.to_nat i) = Some k /\
              0 < k < l /\ 0 < r < l /\ 0 <= s < l /\ cg l s (r + x * k).

Lemma share_valid_iff : forall keys c x i s r k, 0 <= i ->
  assoc (c_commits c) i = Some r -> nth_error keys (Z.to_nat i) = Some k ->
  (share_valid keys c x i s <-> verify_with_challenge l k r s x = true).
Proof.
  intros keys c x i s r k Hi Hr Hk. rewrite verify_with_challenge_iff. unfold share_valid. split.
  - intros (_ & r' & k' & Hr' & Hk' & Hv). rewrite Hr in Hr'. rewrite Hk in Hk'.
    injection Hr' as <-. injection Hk' as <-. exact Hv.
  - intros Hv. split; [exact Hi|]. exists r, k. tauto.
Qed.

Lemma share_loop_strict_ok : forall keys c x rs acc S,
  share_loop l keys c x true rs acc = Ok S ->
  forall i so, In (i, so) rs -> exists s, so = Some s /\ share_valid keys c x i s.
Proof.
  intros keys c x rs. induction rs as [|[j so'] rs IH]; intros acc S Hs i so Hin; [destruct Hin|].
  cbn [share_loop] in Hs. destruct so' as [s'|]; [|discriminate].
  destruct (assoc (c_commits c) j) as [r|] eqn:Ea; [|discriminate].
  destruct ((j <? 0) || (Z.of_nat (length keys) <=? j)) eqn:Er; [discriminate|].
  destruct (nth_error keys (Z.to_nat j)) as [a|] eqn:En; [|discriminate].
  destruct (verify_with_challenge l a r s' x) eqn:Ev; [|discriminate]. cbn [bind] in Hs.
  destruct (negb (scalar_ok l s')); [discriminate|].
  destruct Hin as [[= <- <-]|Hin]; [|eapply IH; eassumption].
  exists s'. split; [reflexivity|]. apply (share_valid_iff keys c x j s' r a); (lia || assumption).
Qed.

Definition sval (so : option Z) : Z := match so with Some s => s | None => 0 end.

Lemma share_loop_complete : forall keys c x strict rs acc, 0 < l -> 0 <= acc < l ->
  (forall i so, In (i, so) rs -> exists s, so = Some s /\ share_valid keys c x i s) ->
  exists S, share_loop l keys c x strict rs acc = Ok S /\ 0 <= S < l /\
            cg l S (acc + zsum (map (fun p => sval (snd p)) rs)).
Proof.
  intros keys c x strict rs. induction rs as [|[j so] rs IH]; intros acc Hl Hacc Hv.
  - exists acc. cbn. repeat split; try lia. cg_ring.
  - destruct (Hv j so (or_introl eq_refl)) as (s & -> & Hj0 & r & k & Hr & Hk & Hkr & Hrr & Hsr & Heq).
    destruct (IH (fadd l acc s) Hl) as (S & HS & HSr & HSe);
      [apply Z.mod_pos_bound; exact Hl | intros; apply Hv; right; assumption|].
    exists S. split; [|split; [exact HSr|]].
    + cbn [share_loop]. rewrite Hr, (proj2 (scalar_ok_iff l s) Hsr). destruct strict; [|exact HS].
      assert (Hj : nth_error keys (Z.to_nat j) <> None) by congruence. apply nth_error_Some in Hj.
      assert (E : (j <? 0) || (Z.of_nat (length keys) <=? j) = false) by lia.
      rewrite E, Hk, (proj2 (verify_with_challenge_iff l k r s x)) by tauto. exact HS.
    + rewrite HSe. cbn [map snd sval]. rewrite zsum_cons, fadd_cg. cg_ring.
Qed.

Definition commit_of (c : cosi) (i : Z) : Z :=
  match assoc (c_commits c) i with Some r => r | None => 0 end.

Lemma shares_sum : forall keys rs c x A,
  cosi_public_key l keys c = Ok A -> Permutation (mk c) (map fst rs) ->
  (forall i so, In (i, so) rs -> exists s, so = Some s /\ share_valid keys c x i s) ->
  cg l (c_r c) (zsum (map (commit_of c) (mk c))) ->
  cg l (zsum (map (fun p => sval (snd p)) rs)) (c_r c + x * A).
Proof.
  intros keys rs c x A HA Hperm Hv HR. apply cosi_public_key_ok in HA. destruct HA as [_ ->].
  rewrite (zsum_map_cg l _ (fun p => x * key_at keys (fst p) + commit_of c (fst p))).
  2:{ intros [i so] Hin. destruct (Hv i so Hin) as (s & -> & _ & r & k & Hr & Hk & _ & _ & _ & Heq).
      cbn [snd fst sval]. unfold commit_of, key_at. rewrite Hr, (nth_error_nth _ _ _ Hk), Heq. cg_ring. }
  rewrite <- (map_map fst (fun i => x * key_at keys i + commit_of c i)).
  rewrite <- (zsum_perm _ _ (Permutation_map _ Hperm)), zsum_map_lin, HR, fsum_cg.
  unfold sel_of. rewrite map_map. change (fun i => snd (i, key_at keys i)) with (key_at keys). cg_ring.
Qed.

Definition commitment_ok (ir : Z * Z) : Prop :=
  point_ok l (snd ir) = true /\ 0 <= fst ir < Consts.CosiMaskBits.

Lemma mark_ok : forall mask i mask', mark mask i = Ok mask' ->
  0 <= i < Consts.CosiMaskBits /\ mask' = N.lxor mask (N.shiftl 1 (Z.to_N i)).
Proof.
  intros mask i mask' Hm. unfold mark in Hm.
  destruct ((Consts.CosiMaskBits <=? i) || (i <? 0)) eqn:Er; [discriminate|].
  injection Hm as <-. split; [lia | reflexivity].
Qed.

Lemma commit_loop_sum : forall rs p mask p' mask',
  commit_loop l rs p mask = Ok (p', mask') ->
  cg l p' (p + zsum (map snd rs)) /\ Forall commitment_ok rs.
Proof.
  intros rs. induction rs as [|[i r] rs IH]; intros p mask p' mask' Hc; cbn [commit_loop] in Hc.
  - injection Hc as <- _. split; [cbn; cg_ring | constructor].
  - destruct (point_ok l r) eqn:Ep; cbn [negb] in Hc; [|discriminate].
    apply bind_ok in Hc. destruct Hc as (mask1 & Hm & Hc). apply mark_ok, proj1 in Hm.
    destruct (IH _ _ _ _ Hc) as [E HF]. split.
    + rewrite E, fadd_cg. cbn [map snd]. rewrite zsum_cons. cg_ring.
    + constructor; [split; [exact Ep | exact Hm] | exact HF].
Qed.

Lemma commitment_sum : forall rs c, aggregate_commitment l rs = Ok c ->
  c_commits c = rs /\ c_s c = 0 /\ cg l (c_r c) (zsum (map snd rs)) /\
  Forall commitment_ok rs.
Proof.
  intros rs c Hc. unfold aggregate_commitment in Hc. destruct rs as [|ir rs]; [discriminate|].
  apply bind_ok in Hc. destruct Hc as ([p mask] & El & [= <-]). cbn [c_commits c_s c_r fst].
  destruct (commit_loop_sum _ _ _ _ _ El) as [E HF].
  repeat split; [|exact HF]. rewrite E. cg_ring.
Qed.

Lemma commit_loop_total : forall rs p mask, Forall commitment_ok rs ->
  exists p' mask', commit_loop l rs p mask = Ok (p', mask').
Proof.
  intros rs. induction rs as [|[i r] rs IH]; intros p mask HF; [exists p, mask; reflexivity|].
  inversion HF as [|? ? [Hp Hi] HF']; subst. cbn [fst snd] in *. cbn [commit_loop]. rewrite Hp. cbn [negb].
  unfold mark. assert (E : (Consts.CosiMaskBits <=? i) || (i <? 0) = false) by lia.
  rewrite E. cbn [bind]. apply IH. exact HF'.
Qed.

Definition has_index (n : N) (idx : list Z) : bool := existsb (fun i => (Z.to_N i =? n)%N) idx.

Lemma has_index_in : forall idx i, Forall (fun j => 0 <= j) idx -> 0 <= i ->
  (has_index (Z.to_N i) idx = true <-> In i idx).
Proof.
  intros idx i Hidx Hi. unfold has_index. rewrite existsb_exists, Forall_forall in *. split.
  - intros (j & Hj & E). apply N.eqb_eq, Z2N.inj in E; [subst; exact Hj | auto | exact Hi].
  - intros Hin. exists i. split; [exact Hin | apply N.eqb_refl].
Qed.

Lemma has_index_perm : forall n a b, Permutation a b -> has_index n a = has_index n b.
Proof.
  intros n a b HP. unfold has_index. apply eq_true_iff_eq. rewrite !existsb_exists.
  split; intros (j & Hj & E); exists j; (split; [|exact E]);
    [apply (Permutation_in _ HP) | apply (Permutation_in _ (Permutation_sym HP))]; exact Hj.
Qed.

Lemma indices_nonneg : forall rs, Forall commitment_ok rs -> Forall (fun j => 0 <= j) (map fst rs).
Proof. intros rs HF. rewrite Forall_map. eapply Forall_impl; [|exact HF]. intros ir [_ Hi]. apply Hi. Qed.

Lemma commit_loop_bits : forall rs p mask p' mask',
  commit_loop l rs p mask = Ok (p', mask') -> NoDup (map fst rs) ->
  forall n, N.testbit mask' n = xorb (N.testbit mask n) (has_index n (map fst rs)).
Proof.
  intros rs. induction rs as [|[i r] rs IH]; intros p mask p' mask' Hc Hnd n.
  - injection Hc as _ <-. cbn. rewrite xorb_false_r. reflexivity.
  - cbn [commit_loop] in Hc. destruct (negb (point_ok l r)); [discriminate|].
    apply bind_ok in Hc. destruct Hc as (mask1 & Hm & Hc). apply mark_ok in Hm. destruct Hm as [Hi ->].
    cbn [map fst] in Hnd. apply NoDup_cons_iff in Hnd. destruct Hnd as [Hni Hnd].
    rewrite (IH _ _ _ _ Hc Hnd n), N.lxor_spec, N.shiftl_1_l, N.pow2_bits_eqb, xorb_assoc. f_equal.
    unfold has_index at 2. cbn [map fst existsb]. fold (has_index n (map fst rs)).
    destruct (N.eqb_spec (Z.to_N i) n) as [<-|]; [|apply xorb_false_l].
    (* n is the head index: it cannot occur in the tail *)
    destruct (has_index (Z.to_N i) (map fst rs)) eqn:Et; [|reflexivity].
    apply has_index_in in Et; [contradiction | | lia].
    apply indices_nonneg, (proj2 (commit_loop_sum _ _ _ _ _ Hc)).
Qed.

Lemma commitment_mask : forall rs c, aggregate_commitment l rs = Ok c -> NoDup (map fst rs) ->
  (forall n, N.testbit (c_mask c) n = has_index n (map fst rs)) /\
  (forall i, In i (mask_keys (c_mask c)) <-> In i (map fst rs)) /\
  length (mask_keys (c_mask c)) = length rs.
Proof.
  intros rs c Hc Hnd. pose proof (commitment_sum rs c Hc) as (_ & _ & _ & HF).
  unfold aggregate_commitment in Hc. destruct rs as [|ir rs]; [discriminate|].
  apply bind_ok in Hc. destruct Hc as ([p mask] & El & [= <-]). cbn [c_mask snd].
  assert (Hbits : forall n, N.testbit mask n = has_index n (map fst (ir :: rs))).
  { intros n. rewrite (commit_loop_bits _ _ _ _ _ El Hnd n), N.bits_0. apply xorb_false_l. }
  assert (Hset : forall i, In i (mask_keys mask) <-> In i (map fst (ir :: rs))).
  { intros i. rewrite mask_keys_testbit, Z_nat_N, Hbits. change (Z.of_nat mask_bits) with Consts.CosiMaskBits.
    split.
    - intros (Hr & Hh). apply has_index_in in Hh; [exact Hh | apply indices_nonneg, HF | lia].
    - intros Hi. assert (Hr : 0 <= i < Consts.CosiMaskBits).
      { apply in_map_iff in Hi. destruct Hi as (jr & <- & Hin). rewrite Forall_forall in HF. apply (HF _ Hin). }
      split; [exact Hr|]. apply has_index_in; [apply indices_nonneg, HF | lia | exact Hi]. }
  split; [exact Hbits|]. split; [exact Hset|].
  rewrite <- (map_length fst (ir :: rs)). apply Permutation_length.
  apply NoDup_Permutation; [apply mask_keys_nodup | exact Hnd | exact Hset].
Qed.

(* [rs] stands for a Go map: the order in which it is iterated is irrelevant *)
Lemma commitment_perm : forall rs rs' c, aggregate_commitment l rs = Ok c -> NoDup (map fst rs) ->
  Permutation rs rs' ->
  exists c', aggregate_commitment l rs' = Ok c' /\ c_mask c' = c_mask c /\ cg l (c_r c') (c_r c).
Proof.
  intros rs rs' c Hc Hnd HP.
  pose proof (commitment_sum rs c Hc) as (_ & _ & Hr & HF).
  assert (Hnd' : NoDup (map fst rs')) by (eapply Permutation_NoDup; [apply Permutation_map; exact HP | exact Hnd]).
  destruct (commit_loop_total rs' 0 0%N (Permutation_Forall HP HF)) as (p' & mask' & El').
  assert (Hc' : aggregate_commitment l rs' = Ok (mkCosi p' 0 mask' rs')).
  { unfold aggregate_commitment. rewrite El'. destruct rs' as [|x xs]; [|reflexivity].
    apply Permutation_sym, Permutation_nil in HP. subst rs. discriminate. }
  exists (mkCosi p' 0 mask' rs'). split; [exact Hc'|]. cbn [c_mask c_r]. split.
  - apply N.bits_inj. intros n.
    destruct (commitment_mask rs c Hc Hnd) as (Hb & _). destruct (commitment_mask rs' _ Hc' Hnd') as (Hb' & _).
    cbn [c_mask] in Hb'. rewrite Hb, Hb'. symmetry. apply has_index_perm, Permutation_map, HP.
  - pose proof (commitment_sum rs' _ Hc') as (_ & _ & Hr' & _). cbn [c_r] in Hr'.
    rewrite Hr, Hr', (zsum_perm _ _ (Permutation_map snd HP)). reflexivity.
Qed.

(* the hypothesis of [complete] (below) on R holds of what CosiAggregateCommitment returns *)
Lemma commitment_wf : forall rs c, aggregate_commitment l rs = Ok c -> NoDup (map fst rs) ->
  cg l (c_r c) (zsum (map (commit_of c) (mask_keys (c_mask c)))).
Proof.
  intros rs c Hc Hnd. pose proof (commitment_sum rs c Hc) as (Hcm & _ & Hr & _).
  destruct (commitment_mask rs c Hc Hnd) as (_ & Hset & _).
  assert (HP : Permutation (mask_keys (c_mask c)) (map fst rs))
    by (apply NoDup_Permutation; [apply mask_keys_nodup | exact Hnd | exact Hset]).
  rewrite (zsum_perm _ _ (Permutation_map (commit_of c) HP)), map_map, Hr.
  apply cg_eq. f_equal. apply map_ext_in. intros [i r] Hin. cbn [fst snd].
  unfold commit_of. rewrite Hcm, (assoc_in_nodup rs i r Hnd Hin). reflexivity.
Qed.

Section Hash.
Variable enc : Z -> N.
Variable H : list N -> Z.

Lemma verify_response_iff : forall keys signer s m c x,
  challenge l enc H keys m c = Ok x ->
  (verify_response l enc H keys signer (Some s) m c = Ok tt <->
   In signer (mk c) /\ share_valid keys c x signer s) /\
  verify_response l enc H keys signer (Some s) m c <> Panic.
Proof.
  intros keys signer s m c x Hx. pose proof Hx as Hb. unfold challenge in Hb.
  apply bind_ok in Hb. destruct Hb as (A & Hb & _). apply cosi_public_key_ok, proj1 in Hb.
  pose proof (signers_okb_all_below keys c Hb) as Hall.
  unfold verify_response. rewrite Hall, Hx. cbn [negb bind].
  destruct (existsb (Z.eqb signer) (mk c)) eqn:Ee; cbn [negb].
  2:{ split; [|discriminate]. split; [discriminate|]. intros [Hin _]. apply (existsb_eqb_In _ _ _ Z.eqb_eq) in Hin. congruence. }
  apply (existsb_eqb_In _ _ _ Z.eqb_eq) in Ee.
  destruct (assoc (c_commits c) signer) as [r|] eqn:Ea.
  2:{ split; [|discriminate]. split; [discriminate|]. intros (_ & _ & r' & k' & Hr' & _). congruence. }
  assert (Hlt : 0 <= signer < Z.of_nat (length keys)).
  { apply all_below_iff in Hall. rewrite Forall_forall in Hall. specialize (Hall signer Ee).
    apply mask_keys_range in Ee. lia. }
  assert (Hn : nth_error keys (Z.to_nat signer) = Some (key_at keys signer)) by (apply nth_error_nth'; lia).
  rewrite Hn, (share_valid_iff keys c x signer s r _ (proj1 Hlt) Ea Hn).
  destruct (verify_with_challenge l _ r s x); (split; [|discriminate]); split;
    [split; [exact Ee | reflexivity] | reflexivity | discriminate | intros [_ E]; discriminate E].
Qed.

Theorem complete : forall keys rs m strict t c A, 0 < l ->
  cosi_public_key l keys c = Ok A ->
  NoDup (map fst rs) -> (forall i, In i (mk c) <-> In i (map fst rs)) ->
  (forall i so, In (i, so) rs ->
     exists s, so = Some s /\ share_valid keys c (H (challenge_input enc (c_r c) A m)) i s) ->
  cg l (c_r c) (zsum (map (commit_of c) (mk c))) ->
  point_ok l A = true -> point_ok l (c_r c) = true -> 0 < t <= Z.of_nat (length (mk c)) ->
  exists c', aggregate_response l enc H keys rs m strict c = Ok c' /\
             full_verify l enc H keys t m c' = Ok tt.
Proof.
  intros keys rs m strict t c A Hl HA Hnd Hset Hv HR HpA HpR Ht.
  set (x := H (challenge_input enc (c_r c) A m)) in *.
  destruct (cosi_public_key_ok keys c A HA) as [Hb _].
  assert (Hx : challenge l enc H keys m c = Ok x) by (unfold challenge; rewrite HA; reflexivity).
  assert (Hperm : Permutation (mk c) (map fst rs))
    by (apply NoDup_Permutation; [apply mask_keys_nodup | exact Hnd | exact Hset]).
  destruct (share_loop_complete keys c x strict rs 0 Hl ltac:(lia) Hv) as (S & HS & HSr & HSe).
  exists (mkCosi (c_r c) S (c_mask c) (c_commits c)). split.
  - unfold aggregate_response. rewrite (signers_okb_all_below keys c Hb). cbn [negb].
    assert (Hf : forallb (fun i => match resp_get rs i with Some _ => true | None => false end) (mk c) = true).
    { apply forallb_forall. intros i Hi. apply Hset, in_map_iff in Hi.
      destruct Hi as ([j so] & <- & Hin). destruct (Hv j so Hin) as (s & -> & _).
      unfold resp_get. cbn [fst]. rewrite (assoc_in_nodup rs j (Some s) Hnd Hin). reflexivity. }
    rewrite Hf, (Permutation_length Hperm), map_length, Nat.eqb_refl, Hx. cbn [negb bind].
    rewrite HS. reflexivity.
  - unfold full_verify, threshold_verify. cbn [c_mask c_r c_s].
    rewrite (proj2 (Z.leb_gt t 0)), (proj2 (Z.leb_le t _)) by lia. cbn [negb].
    change (cosi_public_key l keys (mkCosi (c_r c) S (c_mask c) (c_commits c))) with (cosi_public_key l keys c).
    rewrite HA. cbn [bind]. unfold schnorr_verify. fold x.
    rewrite (proj2 (verify_with_challenge_iff l A (c_r c) S x)); [reflexivity|].
    apply point_ok_iff in HpA, HpR. repeat split; try lia.
    rewrite HSe, Z.add_0_l. exact (shares_sum keys rs c x A HA Hperm Hv HR).
Qed.

End Hash.
End CosiProofs.
