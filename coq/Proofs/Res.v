(* How [bind] and [rmap] of Base/Res.v propagate the three outcomes. *)
Require Import Mixin.Base.Res.

Lemma bind_ok {A B} (r : res A) (f : A -> res B) b :
  bind r f = Ok b -> exists a, r = Ok a /\ f a = Ok b.
Proof. destruct r; cbn; [eauto|discriminate|discriminate]. Qed.

Lemma bind_not_panic {A B} (r : res A) (f : A -> res B) :
  r <> Panic -> (forall a, r = Ok a -> f a <> Panic) -> bind r f <> Panic.
Proof. destruct r; cbn; [auto|discriminate|congruence]. Qed.

Lemma rmap_ok {A B} (g : A -> B) (r : res A) b :
  rmap g r = Ok b -> exists a, r = Ok a /\ b = g a.
Proof. destruct r; cbn; [intros [= <-]; eauto|discriminate|discriminate]. Qed.

Lemma rmap_not_panic {A B} (g : A -> B) (r : res A) : r <> Panic -> rmap g r <> Panic.
Proof. destruct r; cbn; [discriminate|discriminate|auto]. Qed.

Lemma bind_err {A B} (r : res A) (f : A -> res B) :
  r <> Panic -> (forall a, r = Ok a -> f a = Err) -> bind r f = Err.
Proof. destruct r; cbn; [auto|reflexivity|contradiction]. Qed.

Lemma ite_not_panic : forall {A} (c : bool) (x y : res A),
  (c = true -> x <> Panic) -> (c = false -> y <> Panic) -> (if c then x else y) <> Panic.
Proof. intros A [|]; auto. Qed.

Lemma opt_not_panic : forall {A B} (o : option B) (f : B -> res A) y,
  (forall b, f b <> Panic) -> y <> Panic -> match o with Some b => f b | None => y end <> Panic.
Proof. intros A B [b|]; auto. Qed.

(* [injection] on [Ok a = Ok b] simplifies both sides first, which unfolds large
   closed terms; this does not *)
Lemma Ok_inj : forall {A} (a b : A), Ok a = Ok b -> a = b.
Proof. now intros A a b [= ->]. Qed.

(* One step of inverting a successful run [H : _ = Ok _]: the head of the left
   side (a [bind], [rmap], conditional or match) is destructed, with its
   equation kept, and branches that did not succeed are closed. *)
Ltac res_step H :=
  match type of H with
  | Ok _ = Ok _ => injection H as H; try subst
  | Err = Ok _ => discriminate H
  | Panic = Ok _ => discriminate H
  | bind ?r _ = Ok _ => destruct r eqn:?; cbn [bind] in H; try discriminate H
  | rmap _ ?r = Ok _ => destruct r eqn:?; cbn [rmap] in H; try discriminate H
  | (if ?b then _ else _) = Ok _ => destruct b eqn:?; try discriminate H
  | (let '(_, _) := ?x in _) = Ok _ => destruct x eqn:?
  | match ?x with _ => _ end = Ok _ => destruct x eqn:?; try discriminate H
  end.
