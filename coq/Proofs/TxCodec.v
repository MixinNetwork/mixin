(* Model/TxCodec.v.  Two walks over the parsers: on the serialisation of a well-formed value the
   decoder returns that value ([reads], up to [dec_tx_lim_ser]); whatever it returns from a
   string of bytes satisfies the encoder's guards ([keeps], up to [dec_tx_lim_ok]). *)
From Coq Require Import List ZArith NArith Bool Lia ZifyN ZifyNat ZifyBool.
Require Import Mixin.Base.Res Mixin.Gen.Consts Mixin.Model.TxCodec Mixin.Proofs.Lists.
Import ListNotations.
Open Scope N_scope.

Lemma max_int_val : max_int = 65535. Proof. reflexivity. Qed.
Lemma slice_limit_val : slice_limit = 256. Proof. reflexivity. Qed.
Lemma index_limit_val : index_limit = 1024. Proof. reflexivity. Qed.
Lemma extra_cap_val : extra_cap = 4194304. Proof. reflexivity. Qed.
Lemma sparse_mask_val : sparse_mask = 1. Proof. reflexivity. Qed.
Lemma ordinary_mask_val : ordinary_mask = 0. Proof. reflexivity. Qed.

Definition bytes_ok (l : bytes) : Prop := Forall (fun x => x < 256) l.

Lemma bytes_eqb_eq : forall a b, bytes_eqb a b = true <-> a = b.
Proof.
  induction a as [|x a IH]; intros [|y b]; cbn [bytes_eqb]; try easy.
  rewrite andb_true_iff, N.eqb_eq, IH. split; [intros [-> ->]; reflexivity|intros [= -> ->]; auto].
Qed.

Lemma bytes_eqb_refl a : bytes_eqb a a = true.
Proof. apply bytes_eqb_eq. reflexivity. Qed.

Lemma blen_app {A} (x y : list A) : blen (x ++ y) = blen x + blen y.
Proof. unfold blen. rewrite app_length. lia. Qed.

Lemma le_enc_length n : forall v, length (le_enc n v) = n.
Proof. induction n as [|n IH]; intro v; cbn [le_enc length]; [|rewrite IH]; reflexivity. Qed.
Lemma be_enc_length n v : length (be_enc n v) = n.
Proof. unfold be_enc. rewrite rev_length. apply le_enc_length. Qed.

Lemma land_255 v : N.land v 255 = v mod 256.
Proof. exact (N.land_ones v 8). Qed.

Lemma pow256_succ n : 256 ^ N.of_nat (S n) = 256 * 256 ^ N.of_nat n.
Proof. rewrite Nat2N.inj_succ. apply N.pow_succ_r'. Qed.

Lemma le_dec_le_enc n : forall v, le_dec (le_enc n v) = v mod 256 ^ N.of_nat n.
Proof.
  induction n as [|n IH]; intro v; [symmetry; apply N.mod_1_r|].
  cbn [le_enc le_dec]. rewrite IH, land_255, (N.shiftr_div_pow2 v 8), pow256_succ.
  symmetry. apply N.mod_mul_r; [discriminate|apply N.pow_nonzero; discriminate].
Qed.

Lemma be_dec_be_enc n v : v < 256 ^ N.of_nat n -> be_dec (be_enc n v) = v.
Proof.
  intros H. unfold be_dec, be_enc. rewrite rev_involutive, le_dec_le_enc. apply N.mod_small, H.
Qed.

Lemma le_enc_bytes n : forall v, bytes_ok (le_enc n v).
Proof.
  induction n as [|n IH]; intro v; constructor; [|apply IH].
  rewrite land_255. apply N.mod_lt. discriminate.
Qed.
Lemma be_enc_bytes : forall n v, bytes_ok (be_enc n v).
Proof. intros. apply Forall_rev, le_enc_bytes. Qed.

Lemma le_dec_bound l : bytes_ok l -> le_dec l < 256 ^ N.of_nat (length l).
Proof.
  induction 1 as [|x l Hx _ IH]; [reflexivity|].
  cbn [le_dec length]. rewrite pow256_succ. lia.
Qed.
Lemma be_dec_bound l : bytes_ok l -> be_dec l < 256 ^ N.of_nat (length l).
Proof. intros H. rewrite <- rev_length. apply le_dec_bound, Forall_rev, H. Qed.

(* What a parser asks of the bytes that follow the value.  [rd], and so every parser, fails on
   an empty input even when asked for no bytes; hence a parser that may end in a read of length
   zero (the integer 0: par_deposit, par_mint, par_input) needs a rest that is not empty. *)
Definition nonend (r : bytes) : Prop := r <> [].

Lemma app_nonend (x r : bytes) : (0 < length x)%nat -> nonend (x ++ r).
Proof. destruct x; [inversion 1|discriminate]. Qed.

Lemma rd_app k (x r : bytes) : blen x = k -> nonend (x ++ r) -> rd k (x ++ r) = Some (x, r).
Proof.
  intros <- H. unfold rd. destruct (x ++ r) eqn:E; [contradiction|]. rewrite <- E.
  replace (blen (x ++ r) <? blen x) with false by (rewrite blen_app; lia).
  unfold blen. rewrite Nat2N.id, firstn_exact, skipn_exact; reflexivity.
Qed.

Lemma rd_inv k b x r : rd k b = Some (x, r) -> b = x ++ r /\ blen x = k /\ nonend b.
Proof.
  unfold rd. destruct b eqn:E; [discriminate|]. rewrite <- E.
  destruct (blen b <? k) eqn:L; intros [= <- <-].
  split; [symmetry; apply firstn_skipn|]. split; [|rewrite E; discriminate].
  unfold blen in *. rewrite firstn_length_le; lia.
Qed.

Lemma rd_be (k : nat) v r : (0 < k)%nat -> rd (N.of_nat k) (be_enc k v ++ r) = Some (be_enc k v, r).
Proof.
  intros Hk. apply rd_app; [unfold blen|apply app_nonend]; rewrite be_enc_length; auto.
Qed.

Lemma rd_fix_ser (k : nat) v r : (0 < k)%nat -> v < 256 ^ N.of_nat k ->
  (let? (x, r') := rd (N.of_nat k) (be_enc k v ++ r) in Some (be_dec x, r')) = Some (v, r).
Proof. intros Hk Hv. rewrite rd_be, be_dec_be_enc by assumption. reflexivity. Qed.

Definition h_ok (v : N) : Prop := v < 2 ^ 256.
Definition sig_ok (v : N) : Prop := v < 2 ^ 512.
Definition u64_ok (v : N) : Prop := v < 2 ^ 64.

Lemma rd_u32_ser v r : v < 2 ^ 32 -> rd_u32 (ser_u32 v ++ r) = Some (v, r).
Proof. exact (rd_fix_ser 4 v r (Nat.lt_0_succ _)). Qed.
Lemma rd_u64_ser v r : u64_ok v -> rd_u64 (ser_u64 v ++ r) = Some (v, r).
Proof. exact (rd_fix_ser 8 v r (Nat.lt_0_succ _)). Qed.
Lemma rd_h32_ser v r : h_ok v -> rd_h32 (ser_h32 v ++ r) = Some (v, r).
Proof. exact (rd_fix_ser 32 v r (Nat.lt_0_succ _)). Qed.
Lemma rd_sig_ser v r : sig_ok v -> rd_sig (ser_sig v ++ r) = Some (v, r).
Proof. exact (rd_fix_ser 64 v r (Nat.lt_0_succ _)). Qed.

Lemma rd_u16_ser v r : v <= max_int -> rd_u16 (ser_u16 v ++ r) = Some (v, r).
Proof.
  intros H. unfold rd_u16, ser_u16. rewrite (rd_be 2) by auto.
  rewrite be_dec_be_enc by (rewrite max_int_val in H; cbn; lia).
  apply N.ltb_ge in H. rewrite H. reflexivity.
Qed.

Lemma rd_bytes_ser x r : ok_len x = true -> rd_bytes (ser_bytes x ++ r) = Some (x, r).
Proof.
  intros H. apply N.leb_le in H. unfold rd_bytes, ser_bytes. rewrite <- app_assoc, rd_u16_ser by exact H.
  destruct x as [|a x]; [reflexivity|]. apply rd_app; [reflexivity|discriminate].
Qed.

Lemma div8_spec x : 8 * (x / 8) <= x < 8 * (x / 8) + 8.
Proof.
  pose proof (N.div_mod x 8 ltac:(discriminate)). pose proof (N.mod_lt x 8 ltac:(discriminate)). lia.
Qed.

Lemma int_size_bound v : v < 256 ^ int_size v.
Proof.
  unfold int_size. apply N.lt_le_trans with (2 ^ N.size v); [apply N.size_gt|].
  change 256 with (2 ^ 8). rewrite <- N.pow_mul_r. apply N.pow_le_mono_r; [discriminate|].
  pose proof (div8_spec (N.size v + 7)). lia.
Qed.

(* ReadInteger reads also for size 0, which fails at the very end of the input *)
Lemma rd_integer_ser v r : ok_integer v = true -> v <> 0 \/ nonend r ->
  rd_integer (ser_integer v ++ r) = Some (v, r).
Proof.
  intros H Hr. apply N.leb_le in H. unfold rd_integer, ser_integer.
  rewrite <- app_assoc, rd_u16_ser by exact H. pose proof (int_size_bound v) as B.
  rewrite rd_app, be_dec_be_enc; [reflexivity|now rewrite N2Nat.id|unfold blen; now rewrite be_enc_length, N2Nat.id|].
  destruct Hr as [Hv|Hr]; [|intros [_ E]%app_eq_nil; exact (Hr E)].
  apply app_nonend. rewrite be_enc_length. destruct (int_size v); [cbn in B|]; lia.
Qed.

Lemma rd_magic_magic r : rd_magic (magic ++ r) = Some (true, r).
Proof. unfold rd_magic. rewrite (rd_app 2) by easy. rewrite bytes_eqb_refl. reflexivity. Qed.
Lemma rd_magic_null r : rd_magic (null ++ r) = Some (false, r).
Proof. unfold rd_magic. rewrite (rd_app 2) by easy. reflexivity. Qed.

(* [reads p ser good Q]: on the serialisation of a well-formed value, followed by a rest
   that satisfies [Q] ("not at the end", or nothing), [p] returns the value and the rest. *)
Definition reads {A} (p : bytes -> option (A * bytes)) (ser : A -> bytes)
    (good : A -> Prop) (Q : bytes -> Prop) : Prop :=
  forall a r, good a -> Q r -> p (ser a ++ r) = Some (a, r).

Definition wf_opt {A} (f : A -> Prop) (o : option A) : Prop :=
  match o with Some a => f a | None => True end.

Section Combinators.
  Context {A : Type} {p : bytes -> option (A * bytes)} {ser : A -> bytes}
          {good : A -> Prop} {Q : bytes -> Prop}.
  Hypothesis p_ser : reads p ser good Q.

  Lemma par_opt_ser : reads (par_opt p) (ser_opt ser) (wf_opt good) Q.
  Proof.
    intros [a|] r Hg Hq; unfold par_opt, ser_opt.
    - rewrite <- app_assoc, rd_magic_magic, p_ser by assumption. reflexivity.
    - rewrite rd_magic_null. reflexivity.
  Qed.

  Lemma par_list_ser : (forall a r, Q r -> Q (ser a ++ r)) -> forall xs r, Forall good xs -> Q r ->
    par_list p (N.to_nat (blen xs)) (flat_map ser xs ++ r) = Some (xs, r).
  Proof.
    intros Q_ser xs r Hg Hq. unfold blen. rewrite Nat2N.id.
    induction Hg as [|x xs Hx _ IH]; [reflexivity|].
    cbn [length par_list flat_map]. rewrite <- app_assoc, p_ser, IH; [reflexivity|exact Hx|].
    clear IH. induction xs as [|y ys IH]; [exact Hq|].
    cbn [flat_map]. rewrite <- app_assoc. apply Q_ser, IH.
  Qed.
End Combinators.

(* for the parsers whose last read takes at least one byte *)
Definition anyrest (r : bytes) : Prop := True.

(* well-formed values: Go type ranges and the encoder's guards *)
Definition wf_deposit (d : deposit) : Prop :=
  h_ok (d_chain d) /\ u64_ok (d_index d) /\ ok_deposit d = true.
Definition wf_mint (m : mint) : Prop := u64_ok (m_batch m) /\ ok_mint m = true.
Definition wf_input (i : input) : Prop :=
  h_ok (i_hash i) /\ wf_opt wf_deposit (i_deposit i) /\ wf_opt wf_mint (i_mint i) /\ ok_input i = true.
Definition wf_withdrawal (w : withdrawal) : Prop := ok_withdrawal w = true.
(* [lim]: the key count the decoder admits (SliceCountLimit) *)
Definition wf_output (lim : N) (o : output) : Prop :=
  o_type o < 256 /\ Forall h_ok (o_keys o) /\ h_ok (o_mask o) /\ blen (o_keys o) <= lim
  /\ ok_output o = true.

(* the decoder's test is the negation of the encoder's guard *)
Lemma guard_ok a b : (b <=? a) = true -> (a <? b) = false.
Proof. intros H. rewrite N.ltb_antisym, H. reflexivity. Qed.

Lemma par_deposit_ser : reads par_deposit ser_deposit wf_deposit nonend.
Proof.
  intros d r (Wc & Wi & [[Wk Wt]%andb_prop Wa]%andb_prop) Hr.
  unfold par_deposit, ser_deposit. rewrite <- !app_assoc.
  rewrite rd_h32_ser, !rd_bytes_ser, rd_u64_ser, rd_integer_ser by auto.
  destruct d; reflexivity.
Qed.

Lemma par_mint_ser : reads par_mint ser_mint wf_mint nonend.
Proof.
  intros m r (Wb & [Wg Wa]%andb_prop) Hr.
  unfold par_mint, ser_mint. rewrite <- !app_assoc.
  rewrite rd_bytes_ser, rd_u64_ser, rd_integer_ser by auto.
  destruct m; reflexivity.
Qed.

Lemma ser_opt_nonend {A} (f : A -> bytes) o r : nonend (ser_opt f o ++ r).
Proof. destruct o; discriminate. Qed.

Lemma par_input_ser : reads par_input ser_input wf_input nonend.
Proof.
  intros i r (Wh & Wd & Wm & [[[Wi Wg]%andb_prop _]%andb_prop _]%andb_prop) Hr.
  assert (Hi : i_index i <= max_int).
  { apply N.leb_le in Wi. rewrite index_limit_val in Wi. rewrite max_int_val. lia. }
  unfold par_input, ser_input. rewrite <- !app_assoc.
  rewrite rd_h32_ser, rd_u16_ser, (guard_ok _ _ Wi), rd_bytes_ser by assumption.
  rewrite (par_opt_ser par_deposit_ser), (par_opt_ser par_mint_ser) by auto using ser_opt_nonend.
  destruct i; reflexivity.
Qed.

Lemma ser_input_nonend i r : nonend (ser_input i ++ r).
Proof.
  unfold ser_input, ser_h32. rewrite <- app_assoc. apply app_nonend. rewrite be_enc_length. lia.
Qed.

Lemma ser_u16_nonend v r : nonend (ser_u16 v ++ r).
Proof. apply app_nonend. unfold ser_u16. rewrite be_enc_length. lia. Qed.

Lemma par_withdrawal_ser : reads par_withdrawal ser_withdrawal wf_withdrawal anyrest.
Proof.
  intros w r [Wa Wt]%andb_prop _. unfold par_withdrawal, ser_withdrawal.
  rewrite <- app_assoc, !rd_bytes_ser by assumption. destruct w; reflexivity.
Qed.

Lemma par_keys_ser ks r : Forall h_ok ks ->
  par_list rd_h32 (N.to_nat (blen ks)) (flat_map ser_h32 ks ++ r) = Some (ks, r).
Proof.
  intros H. apply (par_list_ser (Q := anyrest) (fun a r Ha _ => rd_h32_ser a r Ha)); easy.
Qed.

Lemma par_output_ser lim : reads (par_output lim) ser_output (wf_output lim) anyrest.
Proof.
  intros o r (Wt & Wk & Wm & Wl & [[[Wa Wn]%andb_prop Ws]%andb_prop Ww]%andb_prop) _.
  apply N.leb_le in Wn. apply N.ltb_ge in Wl. unfold par_output, ser_output. rewrite <- !app_assoc.
  rewrite (rd_app 2 [0; o_type o]), rd_integer_ser by first [easy|right; apply ser_u16_nonend].
  rewrite rd_u16_ser, Wl, par_keys_ser, rd_h32_ser, rd_bytes_ser by assumption.
  rewrite (par_opt_ser par_withdrawal_ser) by (destruct (o_withdrawal o); easy).
  destruct o; reflexivity.
Qed.

(* the canonical representative of a Go map: entries in strictly increasing index order *)
Fixpoint key_lt_all (k : N) (m : sigmap) : Prop :=
  match m with
  | [] => True
  | e :: m' => k < fst e /\ key_lt_all k m'
  end.
Fixpoint keys_inc (m : sigmap) : Prop :=
  match m with
  | [] => True
  | e :: m' => key_lt_all (fst e) m' /\ keys_inc m'
  end.

Lemma sig_sort_sorted m : keys_inc m -> sig_sort m = m.
Proof.
  induction m as [|e m IH]; intros H; [reflexivity|]. destruct H as [H1 H2].
  cbn [sig_sort]. rewrite IH by exact H2. destruct m as [|f m]; [reflexivity|].
  cbn [sig_insert]. destruct H1 as [H1 _]. apply N.ltb_lt in H1. rewrite H1. reflexivity.
Qed.

Lemma keys_distinct_sorted m : keys_inc m -> keys_distinct m = true.
Proof.
  induction m as [|e m IH]; intros H; [reflexivity|]. destruct H as [H1 H2].
  cbn [keys_distinct]. rewrite IH, andb_true_r by exact H2. clear IH H2.
  induction m as [|f m IH]; [reflexivity|]. destruct H1 as [Ha Hb].
  cbn [existsb]. apply N.lt_neq, not_eq_sym, N.eqb_neq in Ha. rewrite Ha. exact (IH Hb).
Qed.

Definition wf_entry (e : N * N) : Prop := fst e <= 65535 /\ sig_ok (snd e).
Definition wf_sigs (m : sigmap) : Prop := keys_inc m /\ Forall wf_entry m /\ ok_sigs m = true.

Lemma par_sig_entry_ser : reads par_sig_entry ser_sig_entry wf_entry anyrest.
Proof.
  intros [k s] r [Hk Hs] _. unfold par_sig_entry, ser_sig_entry.
  rewrite <- app_assoc, rd_u16_ser, rd_sig_ser by assumption. reflexivity.
Qed.

Lemma par_sigs_ser : reads par_sigs ser_sigs wf_sigs anyrest.
Proof.
  intros m r (Hi & He & Hl%N.leb_le) _. unfold par_sigs, ser_sigs.
  rewrite sig_sort_sorted, <- app_assoc, rd_u16_ser by assumption.
  rewrite (par_list_ser par_sig_entry_ser), keys_distinct_sorted by easy. reflexivity.
Qed.

(* the same order on a list of signer indexes ([keys_inc] is this of the keys of a map) *)
Fixpoint increasing (s : list N) : Prop :=
  match s with
  | [] => True
  | m :: s' => Forall (N.lt m) s' /\ increasing s'
  end.
Definition mem (s : list N) (m : N) : bool := existsb (N.eqb m) s.

Lemma mem_In : forall s m, mem s m = true <-> In m s.
Proof.
  intros s m. unfold mem. rewrite existsb_exists. split.
  - intros [x [Hx ->%N.eqb_eq]]. exact Hx.
  - intro H. exists m. split; [exact H | apply N.eqb_refl].
Qed.

Lemma mem_lt_all s a : Forall (N.lt a) s -> mem s a = false.
Proof.
  intros H. destruct (mem s a) eqn:E; [|reflexivity]. apply mem_In in E.
  rewrite Forall_forall in H. apply H in E. lia.
Qed.

Lemma signers_increasing_inv s : forall prev, signers_increasing prev s = true ->
  increasing s /\ Forall (fun m => m <= max_int) s /\ forall p, prev = Some p -> Forall (N.lt p) s.
Proof.
  induction s as [|m s IH]; intros prev H; [repeat constructor|]. cbn [signers_increasing] in H.
  apply andb_prop in H as [[Hp Hm%N.leb_le]%andb_prop H]. destruct (IH _ H) as (Hi & Hb & L).
  specialize (L m eq_refl). split; [split; assumption|]. split; [constructor; assumption|].
  intros p ->. apply N.ltb_lt in Hp. constructor; [exact Hp|].
  eapply Forall_impl; [|exact L]. intros a. apply N.lt_trans, Hp.
Qed.

Lemma increasing_last_max s : increasing s -> Forall (fun m => m <= last s 0) s.
Proof.
  induction s as [|x s IH]; [constructor|]. intros [H1 H2]. constructor.
  - destruct s as [|y s]; [reflexivity|]. inversion H1 as [|? ? Hy _]; subst.
    specialize (IH H2). inversion IH; subst. change (last (x :: y :: s) 0) with (last (y :: s) 0). lia.
  - destruct s as [|y s]; [constructor|]. apply IH, H2.
Qed.

Lemma Forall_last (P : N -> Prop) s d : Forall P s -> P d -> P (last s d).
Proof.
  induction 1 as [|x s Hx Hs IH]; intros Hd; [exact Hd|].
  destruct s; [exact Hx|apply IH, Hd].
Qed.

Lemma nseq_In k : forall a m, In m (nseq a k) <-> a <= m < a + N.of_nat k.
Proof.
  induction k as [|k IH]; intros a m; cbn [nseq In]; [|rewrite IH]; lia.
Qed.
Lemma nseq_length k : forall a, length (nseq a k) = k.
Proof. induction k as [|k IH]; intros a; cbn [nseq length]; [|rewrite IH]; reflexivity. Qed.
Lemma nseq_shift k : forall a b, nseq (a + b) k = map (N.add a) (nseq b k).
Proof.
  induction k as [|k IH]; intros a b; cbn [nseq map]; [|rewrite <- IH, N.add_assoc]; reflexivity.
Qed.
Lemma nseq_app k1 k2 : forall a, nseq a (k1 + k2) = nseq a k1 ++ nseq (a + N.of_nat k1) k2.
Proof.
  induction k1 as [|k1 IH]; intros a; cbn [nseq Nat.add app].
  - rewrite N.add_0_r. reflexivity.
  - rewrite IH, Nat2N.inj_succ, <- N.add_1_l, N.add_assoc. reflexivity.
Qed.

Lemma filter_mem_nseq n : forall a s, increasing s -> Forall (fun m => a <= m < a + N.of_nat n) s ->
  filter (mem s) (nseq a n) = s.
Proof.
  induction n as [|n IH]; intros a s Hs Hb; [destruct Hb as [|m s Hm _]; [reflexivity|lia]|].
  assert (T : forall s', increasing s' -> Forall (fun m => a < m < a + N.of_nat (S n)) s' ->
              filter (mem s') (nseq (a + 1) n) = s').
  { intros s' Hs' Hb'. apply IH; [exact Hs'|]. eapply Forall_impl; [|exact Hb']. cbn beta. lia. }
  cbn [nseq filter]. destruct s as [|m s]; [exact (T [] I (Forall_nil _))|].
  destruct Hs as [Hm Hs]. inversion Hb as [|? ? Ha Hb']; subst.
  assert (Hb'' : Forall (fun x => a < x < a + N.of_nat (S n)) s).
  { rewrite Forall_forall in *. intros x Hx. specialize (Hm x Hx). specialize (Hb' x Hx). lia. }
  destruct (N.eq_dec a m) as [->|Hne].
  - unfold mem at 1. cbn [existsb]. rewrite N.eqb_refl. cbn [orb]. f_equal.
    rewrite <- (T s Hs Hb'') at 2. apply filter_ext_in. intros x Hx%nseq_In.
    unfold mem. cbn [existsb]. replace (x =? m) with false by lia. reflexivity.
  - rewrite mem_lt_all by (constructor; [lia|eapply Forall_impl; [|exact Hm]; lia]).
    apply T; [split; assumption|]. constructor; [lia|exact Hb''].
Qed.

Definition mask_step (i acc m : N) : N :=
  if m / 8 =? i then N.lxor acc (N.shiftl 1 (m mod 8)) else acc.

Lemma mask_step_bit i acc m j : j < 8 ->
  N.testbit (mask_step i acc m) j = xorb (N.testbit acc j) (i * 8 + j =? m).
Proof.
  intros Hj. unfold mask_step.
  pose proof (N.div_mod m 8 ltac:(discriminate)). pose proof (N.mod_lt m 8 ltac:(discriminate)).
  replace (i * 8 + j =? m) with ((m / 8 =? i) && (m mod 8 =? j)) by lia.
  destruct (m / 8 =? i); [|symmetry; apply xorb_false_r].
  rewrite N.lxor_spec, N.shiftl_1_l, N.pow2_bits_eqb. reflexivity.
Qed.

Lemma mask_fold_bit i s : forall acc j, increasing s -> j < 8 ->
  N.testbit (fold_left (mask_step i) s acc) j = xorb (N.testbit acc j) (mem s (i * 8 + j)).
Proof.
  induction s as [|m s IH]; intros acc j Hs Hj; [symmetry; apply xorb_false_r|].
  destruct Hs as [H1 H2]. cbn [fold_left]. rewrite IH, mask_step_bit by assumption.
  unfold mem. cbn [existsb]. destruct (i * 8 + j =? m) eqn:E; [|rewrite xorb_false_r; reflexivity].
  apply N.eqb_eq in E. subst m. fold (mem s (i * 8 + j)). rewrite (mem_lt_all _ _ H1).
  apply xorb_false_r.
Qed.

Lemma mask_byte_bit s i j : increasing s -> j < 8 -> N.testbit (mask_byte s i) j = mem s (i * 8 + j).
Proof.
  intros Hs Hj. unfold mask_byte. change (fold_left _ s 0) with (fold_left (mask_step i) s 0).
  rewrite mask_fold_bit, N.bits_0 by assumption. apply xorb_false_l.
Qed.

Lemma byte_bits_mask s i : increasing s -> byte_bits i (mask_byte s i) = filter (mem s) (nseq (i * 8) 8).
Proof.
  intros Hs. rewrite <- (N.add_0_r (i * 8)) at 1. rewrite nseq_shift. unfold byte_bits.
  assert (G : forall js, Forall (fun j => j < 8) js ->
    flat_map (fun j => if N.testbit (mask_byte s i) j then [i * 8 + j] else []) js
    = filter (mem s) (map (N.add (i * 8)) js)).
  { induction 1 as [|j js Hj _ IH]; [reflexivity|].
    cbn [flat_map map filter]. rewrite IH, mask_byte_bit by assumption.
    destruct (mem s (i * 8 + j)); reflexivity. }
  apply G. repeat constructor.
Qed.

Lemma mask_signers_masks s k : forall i, increasing s ->
  mask_signers i (map (mask_byte s) (nseq i k)) = filter (mem s) (nseq (i * 8) (8 * k)).
Proof.
  induction k as [|k IH]; intros i Hs; [reflexivity|].
  cbn [nseq map mask_signers]. rewrite IH, byte_bits_mask by exact Hs.
  replace (8 * S k)%nat with (8 + 8 * k)%nat by lia. rewrite nseq_app, filter_app.
  do 3 f_equal. lia.
Qed.

Lemma mask_roundtrip s : increasing s -> mask_signers 0 (masks_of s (last s 0)) = s.
Proof.
  intros Hs. unfold masks_of. rewrite mask_signers_masks by exact Hs.
  apply filter_mem_nseq; [exact Hs|]. eapply Forall_impl; [|exact (increasing_last_max s Hs)].
  cbn beta. intros m Hm. pose proof (div8_spec (last s 0)). lia.
Qed.

Definition wf_agg (sg : N) (s : list N) : Prop := sig_ok sg /\ validate_signers s = true.

(* the ordinary form: a byte string of masks, of which [ser_u16 0] is the empty one *)
Lemma par_agg_ordinary sg ms r : sig_ok sg -> ok_len ms = true ->
  validate_signers (mask_signers 0 ms) = true ->
  par_agg (ser_sig sg ++ [ordinary_mask] ++ ser_bytes ms ++ r) = Some ((sg, mask_signers 0 ms), r).
Proof.
  intros Hsg Hl Hv. unfold par_agg.
  rewrite rd_sig_ser, (rd_app 1 [ordinary_mask]), rd_bytes_ser by easy.
  rewrite ordinary_mask_val, sparse_mask_val. cbn [nth N.eqb]. rewrite Hv. reflexivity.
Qed.

Lemma par_agg_ser sg s r : wf_agg sg s -> par_auth (ser_agg sg s ++ r) = Some (Aggregate sg s, r).
Proof.
  intros [Hsg Hv]. unfold par_auth, ser_agg.
  rewrite <- !app_assoc, rd_u16_ser, N.eqb_refl, rd_u16_ser, N.eqb_refl by easy.
  set (tail := match s with [] => _ | _ => _ end).
  enough (par_agg (ser_sig sg ++ tail ++ r) = Some ((sg, s), r)) as -> by reflexivity. subst tail.
  pose proof Hv as [Hl Hi]%andb_prop. apply N.leb_le in Hl.
  apply signers_increasing_inv in Hi as (Hi & Hb & _).
  destruct s as [|m s'] eqn:Es; [exact (par_agg_ordinary sg [] r Hsg eq_refl Hv)|]. rewrite <- Es in *.
  destruct (2 * blen s <? last s 0 / 8 + 1); cbv zeta.
  - unfold par_agg. rewrite <- !app_assoc, rd_sig_ser, (rd_app 1 [sparse_mask]) by easy. cbn [nth].
    rewrite N.eqb_refl, rd_u16_ser, (par_list_ser (Q := anyrest) (fun a r Ha _ => rd_u16_ser a r Ha)), Hv by easy.
    reflexivity.
  - pose proof (par_agg_ordinary sg (masks_of s (last s 0)) r Hsg) as P.
    rewrite mask_roundtrip in P by exact Hi. apply P; [|exact Hv].
    apply N.leb_le. unfold masks_of, blen. rewrite map_length, nseq_length, N2Nat.id.
    pose proof (Forall_last _ s 0 Hb (N.le_0_l _)) as L. cbn beta in L.
    pose proof (div8_spec (last s 0)). rewrite max_int_val in *. lia.
Qed.

Definition wf_auth (a : auth) : Prop :=
  match a with
  | SigMaps ms => Forall wf_sigs ms /\ blen ms <= slice_limit
  | Aggregate sg s => wf_agg sg s
  end.

Lemma par_auth_ser a r : wf_auth a -> par_auth (ser_auth a ++ r) = Some (a, r).
Proof.
  destruct a as [ms|sg s]; intros W; cbn [ser_auth].
  - unfold par_auth. destruct W as [Wm Wl]. rewrite slice_limit_val in Wl. pose proof max_int_val as M.
    rewrite <- app_assoc, rd_u16_ser by lia. replace (blen ms =? max_int) with false by lia.
    destruct ms as [|m ms']; [reflexivity|]. change (0 <? blen (m :: ms')) with true. cbv iota.
    rewrite N.min_l, (par_list_ser par_sigs_ser) by easy. reflexivity.
  - apply par_agg_ser, W.
Qed.

(* the extra field: an empty one is not read at all *)
Lemma rd_extra_ser e r :
  (if 0 <? blen e then rd (blen e) (e ++ r) else Some ([], e ++ r)) = Some (e, r).
Proof.
  destruct e as [|x e]; [reflexivity|]. change (0 <? blen (x :: e)) with true. cbv iota.
  apply rd_app; [reflexivity|discriminate].
Qed.

Definition wf_tx_lim (lim : N) (t : tx) : Prop :=
  t_version t = tx_version /\ h_ok (t_asset t)
  /\ Forall wf_input (t_inputs t) /\ Forall (wf_output lim) (t_outputs t)
  /\ Forall h_ok (t_refs t) /\ blen (t_refs t) <= lim
  /\ wf_auth (t_auth t) /\ ok_tx t = true.

Lemma dec_tx_lim_ser lim t : wf_tx_lim lim t -> dec_tx_lim lim (ser_tx t) = Some t.
Proof.
  intros (Wv & Wa & Wi & Wo & Wr & Wrl%N.ltb_ge & Wau & O). unfold ok_tx in O.
  apply andb_prop in O as [[[[[[Oi _]%andb_prop Oo]%andb_prop _]%andb_prop Or%N.leb_le]%andb_prop Oe]%andb_prop _].
  pose proof Oi as Hi%N.leb_le. pose proof Oo as Ho%N.leb_le. pose proof Oe as He%N.leb_le.
  rewrite slice_limit_val in Hi, Ho. rewrite extra_cap_val in He.
  unfold dec_tx_lim, ser_tx. rewrite Wv, (app_assoc magic), (rd_app 4 (magic ++ _)) by easy.
  unfold check_tx_version. rewrite bytes_eqb_refl, N.ltb_irrefl, rd_h32_ser by exact Wa.
  rewrite rd_u16_ser, (guard_ok _ _ Oi) by (rewrite max_int_val; lia).
  rewrite (par_list_ser par_input_ser);
    [|intros; apply ser_input_nonend|assumption|apply ser_u16_nonend].
  rewrite rd_u16_ser, (guard_ok _ _ Oo) by (rewrite max_int_val; lia).
  rewrite (par_list_ser (par_output_ser lim)) by easy.
  rewrite rd_u16_ser, Wrl, par_keys_ser, rd_u32_ser, (guard_ok _ _ Oe) by first [assumption|lia].
  rewrite <- (app_nil_r (ser_auth _)), rd_extra_ser, par_auth_ser by assumption.
  rewrite <- Wv. destruct t; reflexivity.
Qed.

(* [yields p P]: whatever [p] returns from a string of bytes satisfies [P];
   [keeps p P]: it returns a value satisfying [P] and a rest that is again a string of bytes
   (only ReadInteger needs the bytes: the size of the number it decodes is bounded by their count).
   Proofs/SnapCodec.v inverts its decoder instead (b = enc v ++ r).  That cannot be had here:
   this decoder also returns from strings that are not the encoding of what it returns (a
   signature map listed out of order, for one), and only the re-encoding test of unmarshal
   refuses them. *)
Definition yields {R} (p : bytes -> option R) (P : R -> Prop) : Prop :=
  forall b x, p b = Some x -> bytes_ok b -> P x.
Definition keeps {A} (p : bytes -> option (A * bytes)) (P : A -> Prop) : Prop :=
  yields p (fun xr => let (x, r) := xr in P x /\ bytes_ok r).

Lemma yields_bind {A R} {p : bytes -> option (A * bytes)} {k : A -> bytes -> option R} {P Q} :
  keeps p P -> (forall a, P a -> yields (k a) Q) ->
  yields (fun b => let? (a, b') := p b in k a b') Q.
Proof.
  intros Hp Hk b x H Hb. destruct (p b) as [[a b']|] eqn:E; [|discriminate H].
  destruct (Hp _ _ E Hb) as [Pa Hb']. exact (Hk a Pa b' x H Hb').
Qed.

Lemma yields_guard {R} (c : bool) (k : bytes -> option R) Q :
  (c = false -> yields k Q) -> yields (fun b => if c then None else k b) Q.
Proof. intros Hk b x H. destruct c; [discriminate H|]. exact (Hk eq_refl b x H). Qed.

Lemma keeps_ret {A} (a : A) (P : A -> Prop) : P a -> keeps (fun b => Some (a, b)) P.
Proof. intros Pa b x [= <-] Hb. split; assumption. Qed.

Lemma keeps_impl {A} (p : bytes -> option (A * bytes)) (P P' : A -> Prop) :
  keeps p P -> (forall a, P a -> P' a) -> keeps p P'.
Proof. intros Hp HP b [x r] H Hb. destruct (Hp _ _ H Hb). split; auto. Qed.

Lemma rd_ok {k} : keeps (rd k) (fun x => bytes_ok x /\ blen x = k).
Proof.
  intros b [x r] H Hb. destruct (rd_inv _ _ _ _ H) as (-> & L & _).
  apply Forall_app in Hb as [Hx Hr]. auto.
Qed.

Lemma rd_fix_ok k : keeps (fun b => let? (x, r) := rd k b in Some (be_dec x, r)) (fun _ => True).
Proof. apply (yields_bind rd_ok); intros x _. apply keeps_ret, I. Qed.

Lemma rd_u16_ok : keeps rd_u16 (fun v => v <= max_int).
Proof.
  apply (yields_bind rd_ok); intros x _. apply yields_guard. intros C%N.ltb_ge.
  apply keeps_ret, C.
Qed.

Lemma rd_bytes_ok : keeps rd_bytes (fun x => ok_len x = true).
Proof.
  apply (yields_bind rd_u16_ok); intros l Hl. destruct (l =? 0); [apply keeps_ret; reflexivity|].
  apply (keeps_impl _ _ _ rd_ok). intros x [_ <-]. apply N.leb_le, Hl.
Qed.

Lemma int_size_le v l : v < 256 ^ l -> int_size v <= l.
Proof.
  intros H. unfold int_size. change 256 with (2 ^ 8) in H. rewrite <- N.pow_mul_r in H.
  assert (S : N.size v <= 8 * l).
  { destruct v as [|p]; [cbn; lia|]. rewrite N.size_log2 by discriminate.
    apply N.log2_lt_pow2 in H; [|reflexivity]. lia. }
  pose proof (div8_spec (N.size v + 7)). lia.
Qed.

Lemma rd_integer_ok : keeps rd_integer (fun v => ok_integer v = true).
Proof.
  apply (yields_bind rd_u16_ok); intros l Hl.
  apply (yields_bind rd_ok); intros x [Hx L]. apply keeps_ret, N.leb_le.
  apply be_dec_bound in Hx. unfold blen in L. rewrite L in Hx. apply int_size_le in Hx. exact (N.le_trans _ _ _ Hx Hl).
Qed.

Lemma rd_magic_ok : keeps rd_magic (fun _ => True).
Proof.
  apply (yields_bind rd_ok); intros x _.
  destruct (bytes_eqb x magic); [apply keeps_ret, I|]. destruct (bytes_eqb x null); [apply keeps_ret, I|easy].
Qed.

Lemma par_list_ok {A} {p : bytes -> option (A * bytes)} {P n} :
  keeps p P -> keeps (par_list p n) (fun xs => Forall P xs /\ blen xs = N.of_nat n).
Proof.
  intros p_ok. induction n as [|n IH]; [apply keeps_ret; easy|]. cbn [par_list].
  apply (yields_bind p_ok); intros x Hx. apply (yields_bind IH); intros xs [Hxs L].
  apply keeps_ret. split; [constructor; assumption|]. unfold blen in *. cbn [length]. lia.
Qed.

Lemma par_opt_ok {A} {p : bytes -> option (A * bytes)} {f : A -> bool} :
  keeps p (fun a => f a = true) -> keeps (par_opt p) (fun o => ok_opt f o = true).
Proof.
  intros p_ok. apply (yields_bind rd_magic_ok); intros [|] _; [|apply keeps_ret; reflexivity].
  apply (yields_bind p_ok); intros a Ha. apply keeps_ret, Ha.
Qed.

Lemma par_deposit_ok : keeps par_deposit (fun d => ok_deposit d = true).
Proof.
  apply (yields_bind (rd_fix_ok 32)); intros chain _.
  apply (yields_bind rd_bytes_ok); intros ak Hak.
  apply (yields_bind rd_bytes_ok); intros th Hth.
  apply (yields_bind (rd_fix_ok 8)); intros oi _.
  apply (yields_bind rd_integer_ok); intros amt Hamt.
  apply keeps_ret. unfold ok_deposit. cbn [d_asset_key d_tx d_amount]. rewrite Hak, Hth. exact Hamt.
Qed.

Lemma par_mint_ok : keeps par_mint (fun m => ok_mint m = true).
Proof.
  apply (yields_bind rd_bytes_ok); intros g Hg.
  apply (yields_bind (rd_fix_ok 8)); intros bi _.
  apply (yields_bind rd_integer_ok); intros amt Hamt.
  apply keeps_ret. unfold ok_mint. cbn [m_group m_amount]. rewrite Hg. exact Hamt.
Qed.

Lemma par_input_ok : keeps par_input (fun i => ok_input i = true).
Proof.
  apply (yields_bind (rd_fix_ok 32)); intros h _.
  apply (yields_bind rd_u16_ok); intros ii _. apply yields_guard. intros Hii.
  apply (yields_bind rd_bytes_ok); intros g Hg.
  apply (yields_bind (par_opt_ok par_deposit_ok)); intros d Hd.
  apply (yields_bind (par_opt_ok par_mint_ok)); intros m Hm.
  apply keeps_ret. unfold ok_input. cbn [i_index i_genesis i_deposit i_mint].
  rewrite N.leb_antisym, Hii, Hg, Hd. exact Hm.
Qed.

Lemma par_withdrawal_ok : keeps par_withdrawal (fun w => ok_withdrawal w = true).
Proof.
  apply (yields_bind rd_bytes_ok); intros a Ha.
  apply (yields_bind rd_bytes_ok); intros t Ht.
  apply keeps_ret. unfold ok_withdrawal. cbn [w_address w_tag]. rewrite Ha. exact Ht.
Qed.

Lemma par_output_ok lim : lim <= max_int -> keeps (par_output lim) (fun o => ok_output o = true).
Proof.
  intros Hlim.
  apply (yields_bind rd_ok); intros t _. apply yields_guard. intros _.
  apply (yields_bind rd_integer_ok); intros amt Hamt.
  apply (yields_bind rd_u16_ok); intros kc _. apply yields_guard. intros Hkc%N.ltb_ge.
  apply (yields_bind (par_list_ok (rd_fix_ok 32))); intros keys [_ Lk].
  apply (yields_bind (rd_fix_ok 32)); intros mask _.
  apply (yields_bind rd_bytes_ok); intros sb Hsb.
  apply (yields_bind (par_opt_ok par_withdrawal_ok)); intros w Hw.
  apply keeps_ret. unfold ok_output. cbn [o_amount o_keys o_script o_withdrawal].
  rewrite Hamt, Hsb, Hw, Lk, N2Nat.id, !andb_true_r. apply N.leb_le. lia.
Qed.

Lemma par_sigs_ok : keeps par_sigs (fun m => ok_sigs m = true).
Proof.
  apply (yields_bind rd_u16_ok); intros sc Hsc.
  assert (E : keeps par_sig_entry (fun _ => True)).
  { apply (yields_bind rd_u16_ok); intros si _.
    apply (yields_bind (rd_fix_ok 64)); intros sg _. apply keeps_ret, I. }
  apply (yields_bind (par_list_ok E)); intros es [_ L].
  destruct (keys_distinct es); [|easy]. apply keeps_ret, N.leb_le. rewrite L, N2Nat.id. exact Hsc.
Qed.

Lemma par_agg_ok : keeps par_agg (fun js => validate_signers (snd js) = true).
Proof.
  apply (yields_bind (rd_fix_ok 64)); intros sg _.
  apply (yields_bind rd_ok); intros typ _. cbv zeta.
  eapply (yields_bind (P := fun _ => True)).
  - destruct (nth 0 typ 0 =? sparse_mask).
    + apply (yields_bind rd_u16_ok); intros l _.
      apply (keeps_impl _ _ _ (par_list_ok rd_u16_ok)). easy.
    + destruct (nth 0 typ 0 =? ordinary_mask); [|easy].
      apply (yields_bind rd_bytes_ok); intros masks _. apply keeps_ret, I.
  - intros s _. destruct (validate_signers s) eqn:V; [apply keeps_ret, V|easy].
Qed.

Lemma par_auth_ok : keeps par_auth (fun a => ok_auth a = true).
Proof.
  apply (yields_bind rd_u16_ok); intros sl Hsl. destruct (sl =? max_int) eqn:E.
  - apply (yields_bind rd_u16_ok); intros prefix _. destruct (prefix =? agg_prefix); [|easy].
    apply (yields_bind par_agg_ok); intros [sg s] V. apply keeps_ret.
    cbn [ok_auth fst snd]. destruct s; [reflexivity|exact V].
  - destruct (0 <? sl); [|apply keeps_ret; reflexivity].
    apply (yields_bind (par_list_ok par_sigs_ok)); intros ms [F L]. apply keeps_ret.
    cbn [ok_auth]. rewrite (Forall_forallb _ _ F), andb_true_r. apply N.ltb_lt.
    apply N.eqb_neq in E. cbn beta in Hsl. lia.
Qed.

Lemma dec_tx_lim_ok lim : lim <= max_int ->
  yields (dec_tx_lim lim) (fun t => t_version t = tx_version /\ ok_tx t = true).
Proof.
  intros Hlim.
  apply (yields_bind rd_ok); intros hd _. cbv zeta. apply yields_guard. intros Hv.
  apply (yields_bind (rd_fix_ok 32)); intros asset _.
  apply (yields_bind rd_u16_ok); intros il _. apply yields_guard. intros Hil%N.ltb_ge.
  apply (yields_bind (par_list_ok par_input_ok)); intros ins [Fi Li].
  apply (yields_bind rd_u16_ok); intros ol _. apply yields_guard. intros Hol%N.ltb_ge.
  apply (yields_bind (par_list_ok (par_output_ok lim Hlim))); intros outs [Fo Lo].
  apply (yields_bind rd_u16_ok); intros rl Hrl. apply yields_guard. intros _.
  apply (yields_bind (par_list_ok (rd_fix_ok 32))); intros refs [_ Lr].
  apply (yields_bind (rd_fix_ok 4)); intros el _. apply yields_guard. intros Hel%N.ltb_ge.
  eapply (yields_bind (P := fun x => blen x = el)).
  { destruct (0 <? el) eqn:E; [|apply keeps_ret; apply N.ltb_ge in E; cbn; lia].
    apply (keeps_impl _ _ _ rd_ok). easy. }
  intros extra Le. apply (yields_bind par_auth_ok); intros au Hau.
  intros [|] t [= <-] _. split.
  - unfold check_tx_version in *. destruct (bytes_eqb hd _); [reflexivity|discriminate Hv].
  - unfold ok_tx. cbn [t_inputs t_outputs t_refs t_extra t_auth].
    rewrite (Forall_forallb _ _ Fi), (Forall_forallb _ _ Fo), Hau, Li, Lo, Lr, Le, !N2Nat.id, !andb_true_r.
    rewrite !andb_true_iff, !N.leb_le. auto.
Qed.
