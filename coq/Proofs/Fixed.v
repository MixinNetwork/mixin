(* Model/Fixed.v (C33).  The Integer operations as guarded closed forms with their
   inversions, and the parser on digit strings through their value [val]. *)
From Coq Require Import List ZArith NArith Bool Lia ZifyN ZifyNat ZifyBool.
Require Import Mixin.Base.Res Mixin.Gen.Consts Mixin.Model.Fixed Mixin.Proofs.Res.
Import ListNotations.
Open Scope Z_scope.

(* Add, Mul, Div and NewRation share one operand test: a negative receiver or
   a non-positive argument panics. *)
Lemma operands_ok {A} x y (v : A) : 0 <= x -> 0 < y ->
  (if (x <? 0) || (y <=? 0) then Panic else Ok v) = Ok v.
Proof. intros Hx Hy. replace ((x <? 0) || (y <=? 0)) with false by lia. reflexivity. Qed.

Lemma operands_inv {A} x y (v w : A) :
  (if (x <? 0) || (y <=? 0) then Panic else Ok v) = Ok w -> 0 <= x /\ 0 < y /\ w = v.
Proof.
  destruct ((x <? 0) || (y <=? 0)) eqn:E; [discriminate|]. intros [= <-]. repeat split; lia.
Qed.

(* the overflow test of Add never fires on a big.Int *)
Lemma i_add_spec x y :
  i_add x y = if (x <? 0) || (y <=? 0) then Panic else Ok (x + y).
Proof.
  unfold i_add. destruct ((x <? 0) || (y <=? 0)) eqn:E; [reflexivity|].
  replace ((x + y <? x) || (x + y <? y)) with false by lia. reflexivity.
Qed.

Lemma i_sub_spec x y :
  i_sub x y = if (x <? 0) || (y <=? 0) || (x <? y) then Panic else Ok (x - y).
Proof. unfold i_sub. destruct ((x <? 0) || (y <=? 0)); reflexivity. Qed.

Lemma i_add_ok x y : 0 <= x -> 0 < y -> i_add x y = Ok (x + y).
Proof. rewrite i_add_spec. apply operands_ok. Qed.
Lemma i_add_inv x y v : i_add x y = Ok v -> 0 <= x /\ 0 < y /\ v = x + y.
Proof. rewrite i_add_spec. apply operands_inv. Qed.

Lemma i_sub_ok x y : 0 < y -> y <= x -> i_sub x y = Ok (x - y).
Proof.
  intros Hy Hx. rewrite i_sub_spec.
  replace ((x <? 0) || (y <=? 0) || (x <? y)) with false by lia. reflexivity.
Qed.
Lemma i_sub_inv x y v : i_sub x y = Ok v -> 0 < y /\ y <= x /\ v = x - y.
Proof.
  rewrite i_sub_spec. destruct ((x <? 0) || (y <=? 0) || (x <? y)) eqn:E; [discriminate|].
  intros [= <-]. lia.
Qed.

Lemma i_mul_ok x y : 0 <= x -> 0 < y -> i_mul x y = Ok (x * y).
Proof. apply operands_ok. Qed.
Lemma i_mul_inv x y v : i_mul x y = Ok v -> 0 <= x /\ 0 < y /\ v = x * y.
Proof. apply operands_inv. Qed.

Lemma i_div_ok x y : 0 <= x -> 0 < y -> i_div x y = Ok (x / y).
Proof. apply operands_ok. Qed.
Lemma i_div_inv x y v : i_div x y = Ok v -> 0 <= x /\ 0 < y /\ v = x / y.
Proof. apply operands_inv. Qed.

Lemma ration_ok x y : 0 <= x -> 0 < y -> ration x y = Ok (x, y).
Proof. apply operands_ok. Qed.

Lemma product_ok r x : 0 <= x -> snd r <> 0 -> product r x = Ok (x * fst r / snd r).
Proof.
  intros Hx Hy. unfold product.
  replace (x <? 0) with false by lia. replace (snd r =? 0) with false by lia. reflexivity.
Qed.

Definition is_floor_div (a b q : Z) : Prop := b * q <= a < b * (q + 1).

Lemma floor_div a b : 0 < b -> is_floor_div a b (a / b).
Proof. unfold is_floor_div. lia. Qed.

Lemma i_count_spec x y :
  (x <= 0 \/ y <= 0 \/ x < y -> i_count x y = Panic) /\
  (0 < y -> y <= x ->
     (x / y < 2 ^ 64 -> i_count x y = Ok (x / y) /\ is_floor_div x y (x / y) /\ 1 <= x / y) /\
     (2 ^ 64 <= x / y -> i_count x y = Panic)).
Proof.
  unfold i_count, two64. split.
  - intros H. replace ((x <=? 0) || (y <=? 0) || (x <? y)) with true by lia. reflexivity.
  - intros Hy Hxy. replace ((x <=? 0) || (y <=? 0) || (x <? y)) with false by lia.
    pose proof (floor_div x y Hy) as F. split; intros Hc.
    + replace (x / y <? 2 ^ 64) with true by lia. unfold is_floor_div in *. repeat split; nia.
    + replace (x / y <? 2 ^ 64) with false by lia. reflexivity.
Qed.

Lemma i_cmp_zero x y : (i_cmp x y =? 0) = (x =? y).
Proof. unfold i_cmp. destruct (Z.compare_spec x y); lia. Qed.

Lemma i_cmp_neg x y : (i_cmp x y <? 0) = (x <? y).
Proof. unfold i_cmp. destruct (Z.compare_spec x y); lia. Qed.

Fixpoint val (l : list N) : Z :=
  match l with
  | [] => 0
  | c :: l' => Z.of_N (c - 48) * 10 ^ Z.of_nat (length l') + val l'
  end.

Definition all_digits (l : list N) : Prop := Forall (fun c => is_digit c = true) l.

Lemma is_digit_range c : is_digit c = true <-> (48 <= c <= 57)%N.
Proof. unfold is_digit. lia. Qed.

Lemma of_digits_acc_val l : all_digits l -> forall a,
  of_digits_acc a l = Some (a * 10 ^ Z.of_nat (length l) + val l).
Proof.
  induction 1 as [|c l Hc Hl IH]; intros a; cbn [of_digits_acc val length].
  - f_equal. cbn. lia.
  - rewrite Hc, IH. f_equal.
    rewrite Nat2Z.inj_succ, Z.pow_succ_r by lia. ring.
Qed.

Lemma val_app l1 l2 : val (l1 ++ l2) = val l1 * 10 ^ Z.of_nat (length l2) + val l2.
Proof.
  induction l1 as [|c l1 IH]; cbn [val app length]; [lia|].
  rewrite IH, app_length, Nat2Z.inj_add, Z.pow_add_r by lia. ring.
Qed.

Lemma val_nonneg l : 0 <= val l.
Proof.
  induction l as [|c l IH]; cbn [val]; [lia|].
  pose proof (Z.pow_nonneg 10 (Z.of_nat (length l))). nia.
Qed.

Lemma val_repeat0 k : val (repeat ch0 k) = 0.
Proof. induction k as [|k IH]; cbn [repeat val]; [reflexivity|]. rewrite IH. reflexivity. Qed.

Lemma all_digits_repeat0 k : all_digits (repeat ch0 k).
Proof. induction k; cbn [repeat]; constructor; [reflexivity|assumption]. Qed.

Lemma digits_fuel_spec f : forall n acc,
  (n < 2 ^ N.of_nat f)%N -> all_digits acc ->
  all_digits (digits_fuel f n acc) /\
  val (digits_fuel f n acc) = Z.of_N n * 10 ^ Z.of_nat (length acc) + val acc.
Proof.
  induction f as [|f IH]; intros n acc Hn Hacc; cbn [digits_fuel].
  - split; [assumption|]. cbn in Hn. replace n with 0%N by lia. reflexivity.
  - rewrite Nat2N.inj_succ, N.pow_succ_r' in Hn.
    assert (Hacc' : all_digits ((ch0 + n mod 10)%N :: acc))
      by (constructor; [apply is_digit_range; unfold ch0; lia|assumption]).
    assert (Hv : val ((ch0 + n mod 10)%N :: acc) =
                 Z.of_N (n mod 10) * 10 ^ Z.of_nat (length acc) + val acc)
      by (cbn [val]; unfold ch0; do 3 f_equal; lia).
    destruct (n / 10 =? 0)%N eqn:E.
    + split; [assumption|]. rewrite Hv. do 3 f_equal. lia.
    + destruct (IH (n / 10)%N _ ltac:(lia) Hacc') as [A B]. split; [assumption|].
      rewrite B, Hv. cbn [length]. rewrite Nat2Z.inj_succ, Z.pow_succ_r by lia.
      replace (Z.of_N n) with (10 * Z.of_N (n / 10) + Z.of_N (n mod 10)) by lia. ring.
Qed.

Lemma pos_size_bound p : (N.pos p < 2 ^ N.of_nat (Pos.size_nat p))%N.
Proof.
  induction p as [p IH|p IH|]; cbn [Pos.size_nat]; rewrite ?Nat2N.inj_succ, ?N.pow_succ_r'; lia.
Qed.

Lemma digits_spec n : all_digits (digits n) /\ val (digits n) = Z.of_N n.
Proof.
  assert (Hn : (n < 2 ^ N.of_nat (S (N.size_nat n)))%N).
  { rewrite Nat2N.inj_succ, N.pow_succ_r'.
    destruct n as [|p]; [reflexivity|]. pose proof (pos_size_bound p). cbn [N.size_nat]. lia. }
  destruct (digits_fuel_spec _ n [] Hn (Forall_nil _)) as [A B].
  split; [assumption|]. unfold digits. rewrite B. cbn. lia.
Qed.

Lemma digits_fuel_nonempty f : forall n acc, acc <> [] -> digits_fuel f n acc <> [].
Proof.
  induction f as [|f IH]; intros n acc Hacc; cbn [digits_fuel]; [assumption|].
  destruct (n / 10 =? 0)%N; [discriminate|]. apply IH. discriminate.
Qed.

Lemma digits_nonempty n : digits n <> [].
Proof.
  unfold digits. cbn [digits_fuel]. destruct (n / 10 =? 0)%N; [discriminate|].
  apply digits_fuel_nonempty. discriminate.
Qed.

Lemma digit_not c : is_digit c = true ->
  (c =? ch_dot)%N = false /\ (c =? ch_e)%N = false /\ (c =? ch_E)%N = false /\
  (c =? ch_plus)%N = false /\ (c =? ch_minus)%N = false.
Proof. intros H%is_digit_range. unfold ch_dot, ch_e, ch_E, ch_plus, ch_minus. lia. Qed.

Lemma split_exp_prefix l r : all_digits l ->
  split_exp (l ++ r) = (l ++ fst (split_exp r), snd (split_exp r)).
Proof.
  induction 1 as [|c l Hc Hl IH]; cbn [split_exp app]; [destruct (split_exp r); reflexivity|].
  destruct (digit_not c Hc) as (_ & -> & -> & _). rewrite IH. reflexivity.
Qed.

Lemma count_dots_prefix l r : all_digits l -> count_dots (l ++ r) = count_dots r.
Proof.
  induction 1 as [|c l Hc Hl IH]; cbn [count_dots app]; [reflexivity|].
  destruct (digit_not c Hc) as (-> & _). exact IH.
Qed.

Lemma split_exp_digits l : all_digits l -> split_exp l = (l, None).
Proof.
  intros H. rewrite <- (app_nil_r l) at 1. rewrite split_exp_prefix by assumption.
  cbn. rewrite app_nil_r. reflexivity.
Qed.

Lemma count_dots_digits l : all_digits l -> count_dots l = O.
Proof. intros H. rewrite <- (app_nil_r l). apply count_dots_prefix. assumption. Qed.

Lemma remove_dot_mid l1 l2 : all_digits l1 ->
  remove_dot (l1 ++ ch_dot :: l2) = (l1 ++ l2, length l2).
Proof.
  induction 1 as [|c l Hc Hl IH]; cbn [remove_dot app]; [reflexivity|].
  destruct (digit_not c Hc) as (-> & _). rewrite IH. reflexivity.
Qed.

Lemma parse_signed_digits l : all_digits l -> l <> [] -> parse_signed l = Some (val l).
Proof.
  intros H Hne. destruct H as [|c l Hc Hl]; [congruence|]. unfold parse_signed.
  destruct (digit_not c Hc) as (_ & _ & _ & -> & ->).
  rewrite (of_digits_acc_val (c :: l)) by (constructor; assumption). reflexivity.
Qed.

Lemma precision_val : precision = 8. Proof. reflexivity. Qed.

Lemma in_int32_true z : - 2 ^ 31 <= z <= 2 ^ 31 - 1 -> in_int32 z = true.
Proof. unfold in_int32, min_int32, max_int32. lia. Qed.

(* The bound on [frac] is the decimal library's int32 exponent: both -frac and
   precision - frac have to pass [in_int32]. *)
Lemma parse_mantissa s istr frac :
  split_exp s = (s, None) -> (count_dots s <= 1)%nat ->
  (if Nat.eqb (count_dots s) 0 then (s, O) else remove_dot s) = (istr, frac) ->
  all_digits istr -> istr <> [] -> Z.of_nat frac <= 2 ^ 31 ->
  parse s = Ok (scale10 (val istr) (precision - Z.of_nat frac)).
Proof.
  intros Hs Hc Hr Hd Hne Hf. unfold parse. rewrite Hs.
  replace (Nat.ltb 1 (count_dots s)) with false by lia. rewrite Hr, (parse_signed_digits _ Hd Hne).
  rewrite precision_val, !in_int32_true by lia. pose proof (val_nonneg istr).
  replace (val istr <? 0) with false by lia. cbn [negb]. do 2 f_equal. lia.
Qed.

Lemma parse_dotted l1 l2 :
  all_digits l1 -> all_digits l2 -> l1 ++ l2 <> [] -> Z.of_nat (length l2) <= 2 ^ 31 ->
  parse (l1 ++ ch_dot :: l2) = Ok (scale10 (val (l1 ++ l2)) (precision - Z.of_nat (length l2))).
Proof.
  intros H1 H2 Hne Hlen.
  assert (Hc : count_dots (l1 ++ ch_dot :: l2) = 1%nat).
  { rewrite count_dots_prefix by assumption. cbn. rewrite count_dots_digits by assumption. reflexivity. }
  apply parse_mantissa; try assumption.
  - rewrite split_exp_prefix by assumption. cbn. rewrite split_exp_digits by assumption. reflexivity.
  - lia.
  - rewrite Hc. apply remove_dot_mid. assumption.
  - apply Forall_app. auto.
Qed.

Lemma scale10_floor v k : 0 <= k ->
  is_floor_div (v * 10 ^ precision) (10 ^ k) (scale10 v (precision - k)).
Proof.
  intros Hk. rewrite precision_val. unfold scale10, is_floor_div.
  destruct (0 <=? 8 - k) eqn:E.
  - replace (10 ^ 8) with (10 ^ (8 - k) * 10 ^ k) by (rewrite <- Z.pow_add_r by lia; f_equal; lia).
    lia.
  - replace (- (8 - k)) with (k - 8) by lia.
    replace (10 ^ k) with (10 ^ (k - 8) * 10 ^ 8) by (rewrite <- Z.pow_add_r by lia; f_equal; lia).
    assert (0 < 10 ^ (k - 8)) by (apply Z.pow_pos_nonneg; lia). nia.
Qed.

Lemma scale10_nonneg v e : 0 <= v -> 0 <= scale10 v e.
Proof.
  intros Hv. unfold scale10. destruct (0 <=? e) eqn:E.
  - pose proof (Z.pow_nonneg 10 e). nia.
  - apply Z.div_pos; [assumption|]. apply Z.pow_pos_nonneg; lia.
Qed.

Lemma parse_places l1 l2 :
  all_digits (l1 ++ l2) -> l1 ++ l2 <> [] -> Z.of_nat (length l2) = precision ->
  parse (l1 ++ ch_dot :: l2) = Ok (val (l1 ++ l2)).
Proof.
  intros [H1 H2]%Forall_app Hne Hl.
  rewrite parse_dotted, Hl, Z.sub_diag by (assumption || (rewrite Hl; discriminate)).
  unfold scale10. cbn. f_equal. lia.
Qed.

Lemma parse_print x : 0 <= x -> parse (print x) = Ok x.
Proof.
  intros Hx. unfold print.
  destruct (digits_spec (Z.to_N x)) as [Hd Hv]. rewrite Z2N.id in Hv by lia.
  pose proof (digits_nonempty (Z.to_N x)) as Hs.
  set (s := digits (Z.to_N x)) in *. pose proof precision_val as P.
  (* either branch of [print] puts [precision] digits after the dot *)
  destruct (0 <? Z.of_nat (length s) - precision) eqn:Ep.
  - rewrite parse_places; rewrite ?firstn_skipn, ?skipn_length; congruence || lia.
  - change (ch0 :: ch_dot :: ?l) with ([ch0] ++ ch_dot :: l). rewrite parse_places; cbn [app].
    + cbn [val]. rewrite val_app, val_repeat0, Hv. reflexivity.
    + constructor; [reflexivity|]. apply Forall_app. split; [apply all_digits_repeat0|assumption].
    + discriminate.
    + rewrite app_length, repeat_length. lia.
Qed.

Lemma parse_nonneg s v : parse s = Ok v -> 0 <= v.
Proof.
  unfold parse. intros H. cbv zeta in H. repeat res_step H.
  apply scale10_nonneg. lia.
Qed.
