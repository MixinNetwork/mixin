(* Model/P2PMsg.v: below 4 GiB the parser never panics, every point of a message it
   returns passed the check, each builder's message parses back (those of a fixed
   layout: Props/C08.v); a frame round-trips and a batch fits the transport maximum. *)
From Coq Require Import List ZArith NArith Bool Lia ZifyN ZifyNat ZifyBool.
Require Import Mixin.Base.Res Mixin.Gen.Consts Mixin.Model.P2PMsg Mixin.Proofs.Res Mixin.Proofs.Lists.
Import ListNotations.
Open Scope Z_scope.

Lemma len_nonneg : forall {A} (b : list A), 0 <= len b.
Proof. intros. unfold len. lia. Qed.

Lemma len_nil : forall {A}, len (@nil A) = 0.
Proof. reflexivity. Qed.

Lemma len_cons : forall {A} (x : A) b, len (x :: b) = 1 + len b.
Proof. intros. unfold len. cbn [length]. lia. Qed.

Lemma len_app : forall {A} (a b : list A), len (a ++ b) = len a + len b.
Proof. intros. unfold len. rewrite app_length. lia. Qed.

Lemma len_firstn : forall {A} (b : list A) n, 0 <= n <= len b -> len (firstn (Z.to_nat n) b) = n.
Proof. intros A b n H. unfold len in *. rewrite firstn_length. lia. Qed.

Lemma len_skipn : forall {A} (b : list A) n, 0 <= n <= len b -> len (skipn (Z.to_nat n) b) = len b - n.
Proof. intros A b n H. unfold len in *. rewrite skipn_length. lia. Qed.

Lemma len_repeat : forall {A} (x : A) n, len (repeat x n) = Z.of_nat n.
Proof. intros. unfold len. now rewrite repeat_length. Qed.

Lemma len_zero_nil : forall {A} (b : list A), len b = 0 -> b = [].
Proof. intros A [|x b] H; [reflexivity|]. rewrite len_cons in H. pose proof (len_nonneg b). lia. Qed.

Lemma slice_ok_inv : forall b lo hi r, slice b lo hi = Ok r ->
  0 <= lo <= hi /\ hi <= len b /\ len r = hi - lo.
Proof.
  intros b lo hi r H. unfold slice in H.
  destruct ((0 <=? lo) && (lo <=? hi) && (hi <=? len b)) eqn:E; [|discriminate].
  injection H as <-. rewrite len_firstn by (rewrite len_skipn; lia). lia.
Qed.

Lemma slice_not_err : forall b lo hi, slice b lo hi <> Err.
Proof. intros. unfold slice. destruct (_ && _); discriminate. Qed.

Lemma slice_app3 : forall d a x b lo hi, d = a ++ x ++ b -> lo = len a -> hi = lo + len x ->
  slice d lo hi = Ok x.
Proof.
  intros d a x b lo hi -> -> ->. unfold slice.
  pose proof (len_nonneg a). pose proof (len_nonneg x). pose proof (len_nonneg b).
  replace (_ && _ && _) with true by (rewrite !len_app; lia).
  rewrite skipn_exact, firstn_exact by (unfold len; lia). reflexivity.
Qed.

Lemma slice_from_app : forall d a b lo, d = a ++ b -> lo = len a -> slice_from d lo = Ok b.
Proof.
  intros d a b lo -> ->. apply (slice_app3 _ a b []); [now rewrite app_nil_r|reflexivity|].
  rewrite len_app. reflexivity.
Qed.

Lemma slice_from_0 : forall b, slice_from b 0 = Ok b.
Proof. intros. now apply (slice_from_app b [] b). Qed.

Lemma slice_from_cons : forall x d, slice_from (x :: d) 1 = Ok d.
Proof. intros. now apply (slice_from_app _ [x] d). Qed.

Lemma index_cons_0 : forall x b, index (x :: b) 0 = Ok x.
Proof.
  intros. unfold index. rewrite len_cons. pose proof (len_nonneg b).
  replace ((0 <=? 0) && (0 <? 1 + len b)) with true by lia. reflexivity.
Qed.

Lemma copy_arr_app : forall n x rest, len x = Z.of_nat n -> copy_arr n (x ++ rest) = x.
Proof. intros n x rest H. unfold copy_arr. rewrite <- app_assoc. apply firstn_exact, Nat2Z.inj, H. Qed.

Lemma copy_arr_id : forall n x, len x = Z.of_nat n -> copy_arr n x = x.
Proof. intros n x H. apply firstn_exact, Nat2Z.inj, H. Qed.

Lemma length_copy_arr : forall n src, length (copy_arr n src) = n.
Proof.
  intros. unfold copy_arr. apply firstn_length_le. rewrite app_length, repeat_length. lia.
Qed.

Lemma be_val_snoc : forall a x, be_val (a ++ [x]) = be_val a * 256 + Z.of_N x.
Proof.
  intros a x. unfold be_val. generalize 0.
  induction a as [|y a IH]; intros acc; cbn; [reflexivity|apply IH].
Qed.

Lemma be_val_nonneg : forall b, 0 <= be_val b.
Proof. induction b as [|x b IH] using rev_ind; [reflexivity|rewrite be_val_snoc; lia]. Qed.

Lemma be_val_be_bytes : forall k v, 0 <= v -> be_val (be_bytes k v) = v mod 256 ^ Z.of_nat k.
Proof.
  induction k as [|k IH]; intros v Hv.
  - cbn. now rewrite Z.mod_1_r.
  - cbn [be_bytes]. rewrite be_val_snoc, IH by (apply Z.div_pos; lia).
    rewrite Z2N.id by (apply Z.mod_pos_bound; lia).
    rewrite Nat2Z.inj_succ, Z.pow_succ_r, Z.rem_mul_r by lia. lia.
Qed.

Lemma len_be_bytes : forall k v, len (be_bytes k v) = Z.of_nat k.
Proof.
  induction k as [|k IH]; intros v; cbn [be_bytes]; [reflexivity|].
  rewrite len_app, IH, len_cons, len_nil. lia.
Qed.

Lemma be_roundtrip : forall k v, 0 <= v < 256 ^ Z.of_nat k -> be_val (be_bytes k v) = v.
Proof. intros. rewrite be_val_be_bytes by lia. apply Z.mod_small. assumption. Qed.

Lemma wrap32_small : forall z, 0 <= z < 4294967296 -> wrap32 z = z.
Proof. intros. now apply Z.mod_small. Qed.

Lemma wrap16_small : forall z, 0 <= z < 65536 -> wrap16 z = z.
Proof. intros. now apply Z.mod_small. Qed.

(* The numerals are those of Gen/Consts.v; should one change there, [change]
   fails here, which is intended.  Elsewhere 4294967296 is 2^32 (the range of
   the uint32 size fields), 4194304 = 4 MiB is [tx_max_size], 33554432 = 32 MiB
   [max_size], the transport maximum, 22369621 = 32 MiB * 2 / 3 [batch_threshold]
   and 65 = 1 + 2 * 32 [relay_header]. *)
Ltac consts :=
  change hash_size with 32 in *; change sig_size with 64 in *; change key_size with 32 in *;
  change commitments_max with 1024 in *; change max_encoding_int with 65535 in *;
  change hash_n with 32%nat in *; change key_n with 32%nat in *; change sig_n with 64%nat in *.

Lemma bind_slice_not_panic : forall {A} b lo hi (f : bytes -> res A),
  0 <= lo <= hi /\ hi <= len b -> (forall r, len r = hi - lo -> f r <> Panic) ->
  bind (slice b lo hi) f <> Panic.
Proof.
  intros A b lo hi f H Hf. unfold slice. replace (_ && _ && _) with true by lia.
  apply Hf, len_firstn. rewrite len_skipn; lia.
Qed.

(* one step of a goal [_ <> Panic]; of the tests only the comparisons of
   integers are remembered, the others tell [lia] nothing *)
Ltac np_step :=
  match goal with
  | |- Err <> Panic => discriminate
  | |- Ok _ <> Panic => discriminate
  | |- bind (slice _ _ _) _ <> Panic => apply bind_slice_not_panic; [lia|intros ? ?]
  | |- (if ?c then _ else _) <> Panic =>
      apply ite_not_panic;
      lazymatch c with
      | (_ <? _) => intros ?
      | (_ <=? _) => intros ?
      | negb (_ =? _) => intros ?
      | _ => intros _
      end; [try discriminate|]
  | |- match _ with Some _ => _ | None => _ end <> Panic => apply opt_not_panic; [intros ?|]
  end.

#[global] Hint Rewrite @len_app @len_cons @len_nil len_be_bytes : len_rw.

Ltac list_eq := cbn [app]; rewrite <- ?app_assoc; reflexivity.
(* linear facts about lengths; the hypotheses are expected in normal form, and
   boolean facts (outcomes of the point check and the like) are kept from [lia] *)
Ltac len_solve :=
  repeat match goal with H : _ = true |- _ => clear H end; autorewrite with len_rw; lia.
(* slice d lo hi, where d = a ++ x ++ b *)
Ltac slice_is a x b := rewrite (slice_app3 _ a x b); [cbn [bind]|list_eq|len_solve|len_solve].
(* slice_from d lo, where d = a ++ b *)
Ltac slice_from_is a b := rewrite (slice_from_app _ a b); [cbn [bind]|list_eq|len_solve].
(* the test of the first conditional has the value v *)
Ltac test_is v :=
  match goal with |- context [if ?c then _ else _] => replace c with v by len_solve end; cbv beta iota.
(* the branch of [parse_body] for a message type given as a numeral *)
Ltac dispatch :=
  unfold P2PMsg.parse_body;
  repeat match goal with |- context [Z.of_N (ty ?c) =? ?d] =>
    let v := eval vm_compute in (Z.of_N (ty c) =? d) in change (Z.of_N (ty c) =? d) with v end;
  cbn [orb]; cbv beta iota; consts.

Definition point_wf (p : sync_point) : Prop :=
  len (sp_node p) = 32 /\ len (sp_hash p) = 32 /\ 0 <= sp_number p < 2 ^ 64.

Lemma dec_read_no_panic : forall n r, dec_read n r <> Panic.
Proof. intros. unfold dec_read. destruct (len r <? n); discriminate. Qed.

Lemma read_points_no_panic : forall n r, read_points n r <> Panic.
Proof.
  induction n as [|n IH]; intros r; cbn [read_points]; [discriminate|].
  repeat (apply bind_not_panic; [apply dec_read_no_panic|intros [? ?] _]).
  apply bind_not_panic; [apply IH|discriminate].
Qed.

Lemma unmarshal_sync_points_no_panic : forall b, unmarshal_sync_points b <> Panic.
Proof.
  intros b. unfold unmarshal_sync_points, slice_from. pose proof (len_nonneg b). do 4 np_step.
  apply bind_not_panic; [apply dec_read_no_panic|intros [cb r1] _].
  np_step. apply read_points_no_panic.
Qed.

Lemma dec_read_app : forall n a b, len a = n -> dec_read n (a ++ b) = Ok (a, b).
Proof.
  intros n a b <-. unfold dec_read. rewrite len_app. pose proof (len_nonneg b).
  replace (len a + len b <? len a) with false by lia.
  now rewrite firstn_exact, skipn_exact by apply eq_sym, Nat2Z.id.
Qed.

Lemma read_points_build : forall ps rest, Forall point_wf ps ->
  read_points (length ps) (concat (map marshal_point ps) ++ rest) = Ok ps.
Proof.
  induction ps as [|p ps IH]; intros rest Hall; cbn [length read_points map concat]; [reflexivity|].
  inversion Hall as [|? ? (Hn & Hh & Hnum) Hrest]; subst. unfold marshal_point at 1.
  rewrite <- !app_assoc. do 3 (rewrite dec_read_app by (assumption || apply len_be_bytes); cbn [bind]).
  rewrite IH, be_roundtrip by assumption. now destruct p.
Qed.

Theorem sync_points_roundtrip : forall ps d, Forall point_wf ps ->
  marshal_sync_points ps = Ok d -> unmarshal_sync_points d = Ok ps.
Proof.
  intros ps d Hall Hm. unfold marshal_sync_points in Hm.
  destruct (_ <? _) eqn:E; [discriminate|]. apply Ok_inj in Hm as <-.
  unfold unmarshal_sync_points. consts. pose proof (len_nonneg ps).
  set (M := Consts.P2P_MinimumEncodingHeader). set (B := concat (map marshal_point ps)).
  assert (len M = 4) by reflexivity. pose proof (len_nonneg B).
  test_is false. slice_is (@nil N) M (be_bytes 2 (len ps) ++ B).
  replace (bytes_eqb M M) with true by reflexivity. cbn [negb]. cbv beta iota.
  slice_from_is M (be_bytes 2 (len ps) ++ B).
  rewrite dec_read_app by apply len_be_bytes. cbn [bind].
  rewrite be_roundtrip by (change (256 ^ _) with 65536; lia).
  test_is false. unfold len. rewrite Nat2Z.id, <- (app_nil_r B). now apply read_points_build.
Qed.

Lemma len_concat_const : forall (ws : list bytes) n, Forall (fun w => len w = n) ws ->
  len (concat ws) = n * len ws.
Proof.
  induction 1 as [|w ws Hw _ IH]; cbn [concat]; [unfold len; cbn; lia|].
  rewrite len_app, len_cons, IH, Hw. lia.
Qed.

Lemma wants_loop_no_panic : forall txs n i, 0 <= i -> (i + Z.of_nat n) * 32 <= len txs ->
  wants_loop txs n i <> Panic.
Proof.
  intros txs n. induction n as [|n IH]; intros i Hi Hlen; cbn [wants_loop]; [discriminate|].
  consts. unfold slice_from. np_step. apply bind_not_panic; [apply IH; lia|discriminate].
Qed.

Lemma wants_loop_build : forall ws pre i, 0 <= i -> len pre = 32 * i ->
  Forall (fun w => len w = 32) ws ->
  wants_loop (pre ++ concat ws) (length ws) i = Ok ws.
Proof.
  induction ws as [|w ws IH]; intros pre i Hi Hpre Hall; cbn [length wants_loop concat]; [reflexivity|].
  inversion Hall as [|? ? Hw Hrest]; subst. consts.
  slice_from_is pre (w ++ concat ws). rewrite copy_arr_app by assumption.
  rewrite (app_assoc pre), (IH (pre ++ w) (i + 1)) by (assumption || len_solve). reflexivity.
Qed.

Lemma build_txs_payload_ok : forall txs pl, build_txs_payload txs = Ok pl ->
  pl = Z.to_N (len txs) :: concat (map frame_tx txs).
Proof. intros txs pl H. unfold build_txs_payload in H. destruct (_ <? _); [discriminate|now injection H]. Qed.

Lemma len_payload : forall txs pl, build_txs_payload txs = Ok pl -> 1 <= len pl.
Proof.
  intros txs pl ->%build_txs_payload_ok. rewrite len_cons.
  pose proof (len_nonneg (concat (map frame_tx txs))). lia.
Qed.

(* the offset 67 + 32 * i is a uint16 ([wrap16]); 1024 entries, the literal of
   handle.go, keep it below 65536 *)
Lemma precommit_loop_no_panic : forall check_key data n i, 0 <= i -> i + Z.of_nat n <= 1024 ->
  67 + 32 * (i + Z.of_nat n) <= len data -> precommit_loop check_key data n i <> Panic.
Proof.
  intros check_key data n. induction n as [|n IH]; intros i Hi Hn Hlen; cbn [precommit_loop]; [discriminate|].
  rewrite wrap16_small by lia. unfold slice_from. do 2 np_step; [|discriminate].
  apply bind_not_panic; [apply IH; lia|discriminate].
Qed.

Lemma precommit_loop_checked : forall check_key data n i keys,
  precommit_loop check_key data n i = Ok keys -> Forall (fun k => check_key k = true) keys.
Proof.
  intros check_key data n. induction n as [|n IH]; intros i keys H; cbn [precommit_loop] in H.
  - injection H as <-. constructor.
  - cbv zeta in H. repeat res_step H. constructor; [assumption|]. eapply IH; eassumption.
Qed.

Lemma precommit_loop_build : forall check_key keys pre i, 0 <= i -> len pre = 67 + 32 * i ->
  i + len keys <= 1024 ->
  Forall (fun k => len k = 32 /\ check_key k = true) keys ->
  precommit_loop check_key (pre ++ concat keys) (length keys) i = Ok keys.
Proof.
  intros check_key keys. induction keys as [|k keys IH]; intros pre i Hi Hpre Hn Hall; cbn [length precommit_loop concat]; [reflexivity|].
  inversion Hall as [|? ? [Hk Hc] Hrest]; subst. rewrite len_cons in Hn. pose proof (len_nonneg keys).
  rewrite wrap16_small by lia. consts.
  slice_from_is pre (k ++ concat keys). rewrite copy_arr_app, Hc by assumption.
  rewrite (app_assoc pre), (IH (pre ++ k) (i + 1)) by (assumption || len_solve). reflexivity.
Qed.

Lemma snap_dec_len : forall SN snap_body b s, snap_dec SN snap_body b = Some s -> 4 <= len b.
Proof. intros SN snap_body b s H. unfold snap_dec in H. destruct (len b <? 4) eqn:E; [discriminate|lia]. Qed.

Section Payload.
Variable TX : Type.
Variable tx_body : bytes -> option TX.

Notation tx_dec := (tx_dec TX tx_body).
Notation parse_txs_loop := (parse_txs_loop TX tx_body).
Notation parse_txs_payload := (parse_txs_payload TX tx_body).

Lemma tx_dec_len : forall b t, tx_dec b = Some t -> len b <= 4194304.
Proof.
  intros b t H. unfold P2PMsg.tx_dec in H. change tx_max_size with 4194304 in H.
  destruct (4194304 <? len b) eqn:E; [discriminate|lia].
Qed.

Lemma parse_txs_payload_cons : forall c rest,
  parse_txs_payload (c :: rest) = parse_txs_loop (N.to_nat c) rest.
Proof.
  intros. unfold P2PMsg.parse_txs_payload. rewrite len_cons, index_cons_0. pose proof (len_nonneg rest).
  replace (1 + len rest <? 1) with false by lia. cbn [bind].
  now rewrite slice_from_cons.
Qed.

(* [4 + size] is a uint32 ([wrap32]); below 2^32 bytes of input the wrap is the identity *)
Lemma parse_txs_loop_no_panic : forall n data, len data < 4294967296 -> parse_txs_loop n data <> Panic.
Proof.
  induction n as [|n IH]; intros data Hlen; cbn [P2PMsg.parse_txs_loop].
  - destruct (0 <? len data); discriminate.
  - pose proof (len_nonneg data). unfold slice_from. do 3 np_step.
    pose proof (be_val_nonneg r). np_step.
    rewrite (wrap32_small (4 + be_val r)) by lia. do 2 np_step; [|discriminate]. np_step.
    apply bind_not_panic; [apply IH; lia|discriminate].
Qed.

Lemma parse_txs_payload_no_panic : forall data, len data < 4294967296 -> parse_txs_payload data <> Panic.
Proof.
  intros [|c rest] Hlen; [discriminate|]. rewrite parse_txs_payload_cons.
  apply parse_txs_loop_no_panic. rewrite len_cons in Hlen. lia.
Qed.

Lemma parse_txs_loop_build : forall txs ts,
  Forall2 (fun b t => tx_dec b = Some t) txs ts ->
  parse_txs_loop (length txs) (concat (map frame_tx txs)) = Ok ts.
Proof.
  induction 1 as [|b t txs ts Hb _ IH]; cbn [length map concat P2PMsg.parse_txs_loop].
  - reflexivity.
  - pose proof (tx_dec_len _ _ Hb) as Hl. pose proof (len_nonneg b). unfold frame_tx at 1.
    set (rest := concat (map frame_tx txs)) in *. pose proof (len_nonneg rest).
    test_is false. slice_is (@nil N) (be_bytes 4 (len b)) (b ++ rest).
    rewrite be_roundtrip by (change (256 ^ Z.of_nat 4) with 4294967296; lia).
    slice_from_is (be_bytes 4 (len b)) (b ++ rest).
    test_is false. rewrite wrap32_small by lia.
    slice_is (be_bytes 4 (len b)) b rest. rewrite Hb.
    slice_from_is (be_bytes 4 (len b) ++ b) rest. rewrite IH. reflexivity.
Qed.

Lemma parse_txs_payload_build : forall txs ts pl,
  Forall2 (fun b t => tx_dec b = Some t) txs ts ->
  build_txs_payload txs = Ok pl -> parse_txs_payload pl = Ok ts.
Proof.
  intros txs ts pl H ->%build_txs_payload_ok. rewrite parse_txs_payload_cons.
  unfold len. rewrite Z_N_nat, Nat2Z.id. now apply parse_txs_loop_build.
Qed.

End Payload.

Section Parser.
Variables SN TX : Type.
Variable snap_body : bytes -> option SN.
Variable snap_signed : SN -> bool.
Variable tx_body : bytes -> option TX.
Variable check_key : bytes -> bool.

Notation snap_dec := (snap_dec SN snap_body).
Notation tx_dec := (tx_dec TX tx_body).
Notation parse_txs_loop := (parse_txs_loop TX tx_body).
Notation parse_txs_payload := (parse_txs_payload TX tx_body).
Notation parse_body := (parse_body SN TX snap_body snap_signed tx_body check_key).
Notation parse_msg := (parse_msg SN TX snap_body snap_signed tx_body check_key).

Lemma parse_msg_cons : forall v t rest,
  parse_msg v (t :: rest) = rmap (fun m => (v, m)) (parse_body (Z.of_N t) (t :: rest)).
Proof.
  intros. unfold P2PMsg.parse_msg. rewrite len_cons, index_cons_0. pose proof (len_nonneg rest).
  replace (1 + len rest <? 1) with false by lia. reflexivity.
Qed.

Lemma parse_body_no_panic : forall t data, 1 <= len data < 4294967296 -> parse_body t data <> Panic.
Proof.
  intros t data Hlen. unfold P2PMsg.parse_body, slice_from. consts.
  repeat match goal with
  | |- (if (t =? _) then _ else _) <> Panic => apply ite_not_panic; intros _
  | |- (if ((t =? _) || _) then _ else _) <> Panic => apply ite_not_panic; intros _
  end; repeat np_step.
  - (* pre-commitments *)
    apply bind_not_panic; [apply precommit_loop_no_panic; lia|intros keys _]. repeat np_step.
  - (* graph *)
    apply bind_not_panic; [apply unmarshal_sync_points_no_panic|discriminate].
  - (* bundle *)
    apply bind_not_panic; [apply parse_txs_payload_no_panic; lia|discriminate].
  - (* commitment; r3 is data[129:], the wanted hashes *)
    apply bind_not_panic; [|discriminate]. apply wants_loop_no_panic; [lia|].
    pose proof (Z.mul_div_le (len r3) 32). pose proof (Z.div_pos (len r3) 32). lia.
  - (* full challenge; r0 is data[1:5], the size field *)
    pose proof (be_val_nonneg r0). repeat np_step.
    apply bind_not_panic; [apply parse_txs_payload_no_panic; lia|discriminate].
  - (* transaction challenge *)
    apply bind_not_panic; [apply parse_txs_payload_no_panic; lia|discriminate].
Qed.

Theorem parse_msg_no_panic : forall version data, len data < 4294967296 -> parse_msg version data <> Panic.
Proof.
  intros v [|t rest] Hlen; [discriminate|]. rewrite parse_msg_cons.
  apply rmap_not_panic, parse_body_no_panic. rewrite len_cons in *. pose proof (len_nonneg rest). lia.
Qed.

Definition checked (r : res (msg SN TX)) : Prop :=
  match r with Ok m => Forall (fun k => check_key k = true) (msg_points m) | _ => True end.

Lemma checked_bind : forall {A} (x : res A) f, (forall a, x = Ok a -> checked (f a)) -> checked (bind x f).
Proof. intros A [a| |] f H; [now apply H|exact I|exact I]. Qed.

Lemma checked_if : forall (c : bool) x y, (c = true -> checked x) -> (c = false -> checked y) ->
  checked (if c then x else y).
Proof. intros [|]; auto. Qed.

Lemma checked_opt : forall {B} (o : option B) f y, (forall b, checked (f b)) -> checked y ->
  checked (match o with Some b => f b | None => y end).
Proof. intros B [b|]; auto. Qed.

Lemma parse_body_checked : forall t data, checked (parse_body t data).
Proof.
  (* every Ok leaf lists only keys whose [check_key] test is an enclosing [if] *)
  intros t data. unfold P2PMsg.parse_body. cbv zeta.
  repeat first [exact I | apply checked_if; intros ? | apply checked_bind; intros ? ? | apply checked_opt; [intros ?|]];
    cbn [checked msg_points]; repeat constructor; try (apply negb_false_iff; assumption).
  eapply precommit_loop_checked; eassumption.
Qed.

Theorem roundtrip_transaction : forall v b t, tx_dec b = Some t ->
  parse_msg v (build_transaction b) = Ok (v, MTransaction t).
Proof.
  intros v b t H. unfold build_transaction. rewrite parse_msg_cons. dispatch.
  rewrite slice_from_cons. cbn [bind]. now rewrite H.
Qed.

Theorem roundtrip_finalization : forall v sb s, snap_dec sb = Some s ->
  parse_msg v (build_finalization sb) = Ok (v, MFinalization s).
Proof.
  intros v sb s H. unfold build_finalization. rewrite parse_msg_cons. dispatch.
  rewrite slice_from_cons. cbn [bind]. now rewrite H.
Qed.

Theorem roundtrip_announcement : forall v sig R sb s,
  len sig = sig_size -> len R = key_size -> check_key R = true -> snap_dec sb = Some s ->
  parse_msg v (build_announcement sig R sb) = Ok (v, MAnnouncement sig R s).
Proof.
  intros v sig R sb s H1 H2 H3 H4. pose proof (snap_dec_len _ _ _ _ H4).
  unfold build_announcement. rewrite parse_msg_cons. dispatch.
  set (T := ty Consts.P2P_TypeAnnouncement).
  rewrite slice_from_cons. cbn [bind]. test_is false.
  slice_is [T] sig (R ++ sb). slice_from_is (T :: sig) (R ++ sb).
  rewrite (copy_arr_app _ R sb), H3 by assumption. cbn [negb]. cbv beta iota.
  slice_from_is (T :: sig ++ R) sb. rewrite H4. now rewrite copy_arr_id.
Qed.

Theorem roundtrip_transactions : forall v txs ts typ m,
  typ = ty Consts.P2P_TypeTransactionBundle \/ typ = ty Consts.P2P_TypeFinalizedTransactionBundle ->
  Forall2 (fun b t => tx_dec b = Some t) txs ts ->
  build_transactions txs typ = Ok m -> parse_msg v m = Ok (v, MBundle (Z.of_N typ) ts).
Proof.
  intros v txs ts typ m Ht H Hb. unfold build_transactions in Hb. apply bind_ok in Hb as (pl & Ep & <-%Ok_inj). rewrite parse_msg_cons.
  destruct Ht; subst typ; dispatch; rewrite slice_from_cons; cbn [bind];
    now rewrite (parse_txs_payload_build _ _ _ _ _ H Ep).
Qed.

Theorem roundtrip_transaction_challenge : forall v h cs mask txs ts m,
  len h = hash_size -> len cs = sig_size -> 0 <= mask < 2 ^ 64 ->
  Forall2 (fun b t => tx_dec b = Some t) txs ts ->
  build_transaction_challenge h cs mask txs = Ok m ->
  parse_msg v m = Ok (v, MTransactionChallenge h cs mask ts).
Proof.
  intros v h cs mask txs ts m H1 H2 H3 H Hb. unfold build_transaction_challenge in Hb.
  apply bind_ok in Hb as (pl & Ep & <-%Ok_inj).
  pose proof (len_payload _ _ Ep). rewrite parse_msg_cons. dispatch.
  set (T := ty Consts.P2P_TypeTransactionChallenge).
  rewrite slice_from_cons. cbn [bind]. test_is false.
  slice_from_is (T :: h) (cs ++ be_bytes 8 mask ++ pl).
  slice_is (T :: h ++ cs) (be_bytes 8 mask) pl.
  slice_from_is (T :: h ++ cs ++ be_bytes 8 mask) pl.
  rewrite (parse_txs_payload_build _ _ _ _ _ H Ep). cbn [bind].
  rewrite !copy_arr_app, be_roundtrip by assumption. reflexivity.
Qed.

(* [256 <= len m - 1]: the parser refuses a full challenge of fewer than 257 bytes *)
Theorem roundtrip_full_challenge : forall v sb s c ch txs ts m,
  snap_dec sb = Some s -> snap_signed s = true -> len sb < 2 ^ 32 ->
  len c = key_size -> len ch = key_size -> check_key c = true -> check_key ch = true ->
  Forall2 (fun b t => tx_dec b = Some t) txs ts ->
  build_full_challenge sb c ch txs = Ok m ->
  256 <= len m - 1 ->
  parse_msg v m = Ok (v, MFullChallenge s c ch ts).
Proof.
  intros v sb s c ch txs ts m Hs Hsig Hsb Hc Hch Kc Kch H Hb Hmin.
  unfold build_full_challenge in Hb. apply bind_ok in Hb as (pl & Ep & <-%Ok_inj).
  pose proof (len_payload _ _ Ep). pose proof (len_nonneg sb).
  rewrite parse_msg_cons. dispatch. autorewrite with len_rw in Hmin.
  set (T := ty Consts.P2P_TypeFullChallenge) in *.
  assert (HL : be_val (be_bytes 4 (len sb)) = len sb) by now apply be_roundtrip.
  set (L := be_bytes 4 (len sb)) in *. assert (len L = 4) by apply len_be_bytes.
  rewrite slice_from_cons. cbn [bind]. test_is false.
  slice_is [T] L (sb ++ c ++ ch ++ pl). rewrite HL.
  slice_from_is (T :: L) (sb ++ c ++ ch ++ pl). test_is false.
  slice_is (T :: L) sb (c ++ ch ++ pl). rewrite Hs, Hsig. cbn [negb]. cbv beta iota.
  slice_from_is (T :: L ++ sb) (c ++ ch ++ pl). test_is false.
  slice_is (T :: L ++ sb) c (ch ++ pl). rewrite (copy_arr_id _ c), Kc by assumption. cbn [negb]. cbv beta iota.
  slice_is (T :: L ++ sb ++ c) ch pl. rewrite (copy_arr_id _ ch), Kch by assumption. cbn [negb]. cbv beta iota.
  slice_from_is (T :: L ++ sb ++ c ++ ch) pl.
  rewrite (parse_txs_payload_build _ _ _ _ _ H Ep). reflexivity.
Qed.

(* [1 <= len keys]: the parser wants 80 bytes, an empty list gives 67 *)
Theorem roundtrip_commitments : forall v sig keys m,
  len sig = sig_size -> 1 <= len keys ->
  Forall (fun k => len k = 32 /\ check_key k = true) keys ->
  build_commitments sig keys = Ok m ->
  parse_msg v m = Ok (v, MPreCommitments sig keys (be_bytes 2 (len keys) ++ concat keys)).
Proof.
  intros v sig keys m Hs Hn Hall Hb. unfold build_commitments in Hb. unfold bytes in *.
  destruct (_ <? _) eqn:E; [discriminate|]. apply Ok_inj in Hb as <-.
  assert (Hc : len (concat keys) = 32 * len keys).
  { apply len_concat_const. eapply Forall_impl; [|exact Hall]. now intros a [H _]. }
  rewrite parse_msg_cons. dispatch.
  set (T := ty Consts.P2P_TypePreCommitments).
  assert (HC : be_val (be_bytes 2 (len keys)) = len keys) by (apply be_roundtrip; change (256 ^ _) with 65536; lia).
  set (C := be_bytes 2 (len keys)) in *. assert (len C = 2) by apply len_be_bytes.
  test_is false. slice_is [T] sig (C ++ concat keys). slice_is (T :: sig) C (concat keys). rewrite HC.
  test_is false. slice_from_is (T :: sig ++ C) (concat keys). test_is false.
  replace (T :: sig ++ C ++ concat keys) with ((T :: sig ++ C) ++ concat keys) by list_eq.
  unfold len at 1. rewrite Nat2Z.id, precommit_loop_build by (assumption || len_solve). cbn [bind].
  slice_from_is (T :: sig) (C ++ concat keys). now rewrite copy_arr_id.
Qed.

Theorem roundtrip_commitment : forall v sig h R wants,
  len sig = sig_size -> len h = hash_size -> len R = key_size -> check_key R = true ->
  Forall (fun w => len w = 32) wants ->
  parse_msg v (build_commitment sig h R wants) =
  Ok (v, MCommitment sig h R wants (h ++ R ++ concat wants)).
Proof.
  intros v sig h R wants Hs Hh HR Hc Hall. unfold build_commitment.
  assert (Hl : len (concat wants) = 32 * len wants) by now apply len_concat_const.
  pose proof (len_nonneg wants).
  rewrite parse_msg_cons. dispatch.
  set (T := ty Consts.P2P_TypeCommitment). set (W := concat wants) in *.
  rewrite slice_from_cons. cbn [bind]. test_is false.
  slice_is [T] sig (h ++ R ++ W). slice_from_is (T :: sig) (h ++ R ++ W). slice_from_is (T :: sig ++ h) (R ++ W).
  rewrite (copy_arr_app _ R W), Hc by assumption. cbn [negb]. cbv beta iota.
  slice_from_is (T :: sig ++ h ++ R) W.
  rewrite (copy_arr_app _ h), (copy_arr_id _ sig) by assumption.
  destruct wants as [|w ws]; [reflexivity|].
  rewrite len_cons in Hl. pose proof (len_nonneg ws).
  replace (0 <? len W) with true by lia.
  replace (len W) with (len (w :: ws) * 32) by (rewrite len_cons; lia).
  rewrite Z.mod_mul, Z.div_mul by lia. cbn [Z.eqb negb]. cbv beta iota.
  unfold len at 1. rewrite Nat2Z.id.
  now rewrite (wants_loop_build _ [] 0 (Z.le_refl 0) eq_refl Hall : wants_loop W _ _ = _).
Qed.

Theorem roundtrip_graph : forall v sig ps m d,
  len sig = sig_size -> Forall point_wf ps ->
  marshal_sync_points ps = Ok d -> build_graph sig ps = Ok m ->
  parse_msg v m = Ok (v, MGraph sig ps d).
Proof.
  intros v sig ps m d Hs Hall Hd Hb.
  unfold build_graph in Hb. rewrite Hd in Hb. apply Ok_inj in Hb as <-.
  assert (Hl : 6 <= len d).
  { unfold marshal_sync_points in Hd. destruct (_ <? _); [discriminate|]. apply Ok_inj in Hd as <-.
    rewrite !len_app, len_be_bytes. pose proof (len_nonneg (concat (map marshal_point ps))).
    change (len Consts.P2P_MinimumEncodingHeader) with 4. lia. }
  rewrite parse_msg_cons. dispatch. set (T := ty Consts.P2P_TypeGraph).
  test_is false. rewrite slice_from_cons. cbn [bind]. slice_from_is (T :: sig) d.
  rewrite (sync_points_roundtrip ps d Hall Hd). cbn [bind]. now rewrite copy_arr_app.
Qed.

End Parser.

Lemma receive_app : forall limit hdr body, len hdr = header_size ->
  receive limit (hdr ++ body) =
  if (limit =? 0) || (max_size <? limit) then mk_recv Err 0 0
  else
    let v := nth 0 hdr 0%N in
    if negb (v =? frame_version)%N then mk_recv Err header_size 0
    else
      let size := be_val (skipn 2 hdr) in
      if limit <? size then mk_recv Err header_size 0
      else if len body <? size then mk_recv Err (header_size + len body) size
      else mk_recv (Ok (v, firstn (Z.to_nat size) body)) (header_size + size) size.
Proof.
  intros limit hdr body Hh. unfold receive. rewrite len_app, Hh. pose proof (len_nonneg body).
  replace (header_size + len body <? header_size) with false by lia.
  now rewrite firstn_exact, skipn_exact by (rewrite <- Hh; apply eq_sym, Nat2Z.id).
Qed.

Theorem frame_roundtrip : forall m, 1 <= len m <= max_size ->
  exists f, encode_frame m = Ok f /\ len f = header_size + len m /\
    receive max_size f = mk_recv (Ok (frame_version, m)) (header_size + len m) (len m).
Proof.
  intros m H. unfold encode_frame. replace ((len m <? 1) || (max_size <? len m)) with false by lia.
  eexists; split; [reflexivity|].
  split; [rewrite !len_cons, len_app, len_be_bytes; change header_size with 6; lia|].
  change (?v :: ?x :: ?s ++ m) with ((v :: x :: s) ++ m).
  rewrite receive_app by (rewrite !len_cons, len_be_bytes; reflexivity).
  cbn [nth skipn]. rewrite N.eqb_refl, be_roundtrip by (change max_size with 33554432 in H; lia).
  replace (max_size <? len m) with false by lia. replace (len m <? len m) with false by lia.
  change ((max_size =? 0) || (max_size <? max_size)) with false. cbn [negb]. cbv zeta.
  unfold len. now rewrite Nat2Z.id, firstn_all.
Qed.

Theorem send_accepts_spec : forall m, send_accepts (len m) = is_ok (encode_frame m).
Proof. intros. unfold send_accepts, encode_frame. destruct ((len m <? 1) || (max_size <? len m)); reflexivity. Qed.

Lemma len_concat_frames : forall txs, len (concat (map frame_tx txs)) = sum_sizes (map len txs).
Proof.
  induction txs as [|b txs IH]; cbn [map concat sum_sizes]; [reflexivity|].
  rewrite len_app, IH. unfold frame_tx. rewrite len_app, len_be_bytes. lia.
Qed.

Lemma len_txs_payload : forall txs pl, build_txs_payload txs = Ok pl -> len pl = 1 + sum_sizes (map len txs).
Proof. intros txs pl ->%build_txs_payload_ok. now rewrite len_cons, len_concat_frames. Qed.

Fixpoint sum_z (l : list Z) : Z := match l with [] => 0 | x :: r => x + sum_z r end.

Lemma sum_sizes_sum : forall (l : list bytes), sum_sizes (map len l) = 4 * len l + sum_z (map len l).
Proof. induction l as [|x l IH]; cbn [map sum_sizes sum_z]; [reflexivity|]. rewrite len_cons, IH. lia. Qed.

(* every admitted transaction was admitted while the running total, which includes
   it and everything before it, was below the threshold.  The bound is
   [Z.max (acc + 1) batch_threshold]: from acc >= threshold nothing is admitted
   and the sum stays acc. *)
Lemma batch_loop_bound : forall (txs : list (bytes * bool)) acc, 0 <= acc ->
  let batch := select (batch_loop acc (map (fun e => (len (fst e), snd e)) txs)) (map fst txs) in
  acc + sum_z (map len batch) < Z.max (acc + 1) batch_threshold /\ len batch <= len txs.
Proof.
  induction txs as [|[b fl] txs IH]; intros acc Hacc; cbn [map batch_loop select fst snd].
  - unfold len. cbn [map sum_z length]. lia.
  - pose proof (len_nonneg b). specialize (IH (acc + len b) ltac:(lia)). cbv zeta in *.
    destruct (fl && _) eqn:E; cbn [map sum_z]; rewrite !len_cons; lia.
Qed.

Lemma batch_of_bound : forall (txs : list (bytes * bool)),
  sum_z (map len (batch_of txs)) < Z.max 1 batch_threshold /\ len (batch_of txs) <= len txs.
Proof. intros txs. exact (batch_loop_bound txs 0 (Z.le_refl 0)). Qed.

(* 1 + 4 * 255: the count byte, and a 4-byte length in front of each of at most
   [txs_max] = 255 transactions *)
Lemma batch_payload : forall (txs : list (bytes * bool)), len txs <= txs_max ->
  exists pl, build_txs_payload (batch_of txs) = Ok pl /\ len pl < 1 + 4 * 255 + batch_threshold.
Proof.
  intros txs Hn. destruct (batch_of_bound txs) as (B1 & B2). unfold build_txs_payload.
  replace (txs_max <? len (batch_of txs)) with false by lia. eexists; split; [reflexivity|].
  rewrite len_cons, len_concat_frames, sum_sizes_sum. change txs_max with 255 in Hn.
  change batch_threshold with 22369621 in *. lia.
Qed.

Theorem batch_fits : forall (txs : list (bytes * bool)) typ,
  len txs <= txs_max ->
  exists m, build_transactions (batch_of txs) typ = Ok m /\ len m + relay_header <= max_size.
Proof.
  intros txs typ Hn. destruct (batch_payload txs Hn) as (pl & E & L).
  unfold build_transactions. rewrite E. eexists; split; [reflexivity|].
  rewrite len_cons. change relay_header with 65. change max_size with 33554432.
  change batch_threshold with 22369621 in L. lia.
Qed.
