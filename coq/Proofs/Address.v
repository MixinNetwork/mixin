(* Lemmas about Model/Address.v: an accepted address text prints back
   identically; a printed address parses back to the same keys. *)
From Coq Require Import List ZArith NArith Bool Lia.
Require Import Mixin.Base.Res Mixin.Gen.Consts Mixin.Model.Base58 Mixin.Model.Address.
Require Import Mixin.Proofs.Lists Mixin.Proofs.Base58.
Import ListNotations.
Open Scope N_scope.

Lemma bytes_eqb_eq : forall a b, bytes_eqb a b = true <-> a = b.
Proof.
  induction a as [|x a IH]; destruct b as [|y b]; cbn [bytes_eqb]; try (split; (reflexivity || discriminate)).
  rewrite andb_true_iff, N.eqb_eq, IH. split; [intros [-> ->]|intros [= -> ->]]; auto.
Qed.

Lemma has_prefix_split : forall p s, has_prefix p s = true -> s = p ++ skipn (length p) s.
Proof.
  induction p as [|x p IH]; intros [|y s] H; [reflexivity|reflexivity|discriminate H|].
  apply andb_true_iff in H as [->%N.eqb_eq H]. cbn [length skipn app]. f_equal. apply IH, H.
Qed.

Lemma has_prefix_app : forall p s, has_prefix p (p ++ s) = true.
Proof. induction p as [|x p IH]; intros; cbn [has_prefix app]; [reflexivity|]. rewrite N.eqb_refl. apply IH. Qed.

Lemma firstn_plus : forall (a b : nat) (l : list N),
  firstn a l ++ firstn b (skipn a l) = firstn (a + b) l.
Proof.
  induction a as [|a IH]; intros b [|x l]; cbn [firstn skipn plus app]; try reflexivity.
  - now rewrite firstn_nil.
  - f_equal. apply IH.
Qed.

Lemma sizes : key_size = 32%nat /\ keys_size = 64%nat /\ payload_size = 68%nat /\ checksum_size = 4%nat.
Proof. repeat split; reflexivity. Qed.

Section AddressProofs.
  Variable H : list N -> list N.
  Variable check_key : list N -> bool.

  Theorem address_canonical : forall s a, of_string H check_key s = Ok a -> to_string H a = s.
  Proof.
    intros s a Hp. unfold of_string in Hp.
    destruct (has_prefix prefix s) eqn:Epre; cbn [negb] in Hp; [|discriminate].
    set (data := decode (skipn (length prefix) s)) in *.
    destruct (Nat.eqb (length data) payload_size) eqn:Elen; cbn [negb] in Hp; [|discriminate].
    destruct (bytes_eqb _ _) eqn:Echk; cbn [negb] in Hp; [|discriminate].
    do 2 (destruct (check_key _); cbn [negb] in Hp; [|discriminate]).
    replace a with (firstn key_size data, firstn key_size (skipn key_size data)) by congruence.
    apply bytes_eqb_eq in Echk. unfold to_string.
    rewrite (app_assoc (firstn key_size data)), firstn_plus. fold keys_size.
    rewrite Echk, firstn_skipn. unfold data.
    (* the length test makes [data] non-empty, so the text is over the alphabet
       and [encode] gives it back *)
    rewrite encode_decode; [symmetry; apply has_prefix_split, Epre|].
    apply decode_nonempty_alphabet. fold data. intros E. rewrite E in Elen. discriminate Elen.
  Qed.

  Hypothesis H_len : forall x, length (H x) = 32%nat.
  Hypothesis H_bytes : forall x, Forall (fun b => b < 256) (H x).

  Theorem address_roundtrip : forall sp vw,
    length sp = 32%nat -> length vw = 32%nat ->
    Forall (fun b => b < 256) sp -> Forall (fun b => b < 256) vw ->
    check_key sp = true -> check_key vw = true ->
    of_string H check_key (to_string H (sp, vw)) = Ok (sp, vw).
  Proof.
    intros sp vw Lsp Lvw Bsp Bvw Csp Cvw. unfold to_string, of_string.
    set (c4 := firstn checksum_size (H (prefix ++ sp ++ vw))).
    assert (Lc : length c4 = 4%nat) by (unfold c4; now rewrite firstn_length, H_len).
    assert (Bc : Forall (fun b => b < 256) c4).
    { pose proof (H_bytes (prefix ++ sp ++ vw)) as B.
      rewrite <- (firstn_skipn checksum_size) in B. apply Forall_app in B. apply B. }
    rewrite has_prefix_app, (skipn_exact prefix _ _ eq_refl), decode_encode
      by (repeat (apply Forall_app; split); assumption).
    rewrite !app_length, Lsp, Lvw, Lc. change (Nat.eqb _ payload_size) with true.
    rewrite (firstn_exact sp _ _ Lsp), (skipn_exact sp _ _ Lsp), (firstn_exact vw _ _ Lvw), Csp, Cvw.
    rewrite app_assoc, firstn_exact, skipn_exact by (rewrite app_length, Lsp, Lvw; reflexivity).
    fold c4. now rewrite (proj2 (bytes_eqb_eq c4 c4) eq_refl).
  Qed.
End AddressProofs.
