(* The round transitions of Model/RoundLinks.v: what an accepted one establishes, that a rejected one
   changes nothing, and that RoundLinks mirror the durable LINK records in every reachable state -
   provided no external reference is a node id, the key of a HEAD record ([honest]; cf. Props/C20.v). *)
From Coq Require Import List NArith Bool Lia ZifyN ZifyBool Permutation.
Require Import Mixin.Base.Res Mixin.Model.RoundHash Mixin.Model.LiveRound Mixin.Model.RoundLinks
               Mixin.Proofs.Lists Mixin.Proofs.RoundHash.
Import ListNotations.
Open Scope N_scope.

Lemma read_round_some d k r : read_round d k = Ok (Some r) ->
  find_round k (d_rounds d) = Some r /\ r_hash r <> 0.
Proof.
  unfold read_round. destruct (find_round k (d_rounds d)) as [x|]; [|discriminate].
  destruct (N.eqb_spec (r_hash x) 0); [discriminate|]. intros [= ->]. auto.
Qed.
Lemma read_round_none d k : read_round d k = Ok None -> find_round k (d_rounds d) = None.
Proof.
  unfold read_round. destruct (find_round k (d_rounds d)) as [x|]; [|reflexivity].
  destruct (r_hash x =? 0); discriminate.
Qed.
Lemma read_round_not_err : forall d k, read_round d k <> Err.
Proof. intros d k. unfold read_round. destruct (find_round k (d_rounds d)) as [x|]; [destruct (r_hash x =? 0)|]; discriminate. Qed.

Lemma dur_link_put d f t v f' t' :
  dur_link (put_link f t v d) f' t' = if (f' =? f) && (t' =? t) then v else dur_link d f' t'.
Proof. reflexivity. Qed.
Lemma dur_link_put_round d k v f t : dur_link (put_round k v d) f t = dur_link d f t.
Proof. reflexivity. Qed.
Lemma find_put_round d k v k' :
  find_round k' (d_rounds (put_round k v d)) = if k' =? k then Some v else find_round k' (d_rounds d).
Proof. reflexivity. Qed.
Lemma find_put_link d f t v k : find_round k (d_rounds (put_link f t v d)) = find_round k (d_rounds d).
Proof. reflexivity. Qed.
Lemma get_link_cons n k v l : get_link n ((k, v) :: l) = if n =? k then v else get_link n l.
Proof. reflexivity. Qed.

(* what the two writes shared by StartNewRound and UpdateEmptyHeadRound change *)
Lemma head_link_written id hd to v d :
  let d' := put_round id hd (put_link id to v d) in
  find_round id (d_rounds d') = Some hd /\
  (forall n, dur_link d' id n = if n =? to then v else dur_link d id n) /\
  (forall from n, from <> id -> dur_link d' from n = dur_link d from n) /\
  (forall k, k <> id -> find_round k (d_rounds d') = find_round k (d_rounds d)).
Proof.
  cbv zeta. split; [rewrite find_put_round, N.eqb_refl; reflexivity|]. split; [|split].
  - intros n. rewrite dur_link_put_round, dur_link_put, N.eqb_refl. reflexivity.
  - intros from n Hn. rewrite dur_link_put_round, dur_link_put, (proj2 (N.eqb_neq _ _) Hn). reflexivity.
  - intros k Hn. rewrite find_put_round, find_put_link, (proj2 (N.eqb_neq _ _) Hn). reflexivity.
Qed.

Definition closed_rec (self fs : N) (s : round_rec) : round_rec :=
  mk_rr self (r_node s) (r_number s) fs (r_self s) (r_ext s).

Set Implicit Arguments.
(* StartNewRound for a round after the first.  [ss_other], [ss_free] and
   [ss_forward] are its debug assertions: config.Debug is on in the modelled
   configuration (Gen/Consts.RoundDebugAsserts). *)
Record start_stored (d : durable) (node number self ext fs : N) (s e : round_rec) (d' : durable) : Prop := {
  ss_head : find_round node (d_rounds d) = Some s;
  ss_number : r_number s = number;
  ss_ext : find_round ext (d_rounds d) = Some e;
  ss_hash : r_hash e <> 0;
  ss_other : r_node e <> r_node s;
  ss_free : find_round self (d_rounds d) = None;
  ss_forward : dur_link d node (r_node e) <= r_number e;
  ss_written : d' = put_round node (mk_rr node node (number + 1) 0 self ext)
                      (put_round self (closed_rec self fs s) (put_link node (r_node e) (r_number e) d)) }.

Record update_stored (d : durable) (node number self ext : N) (s e : round_rec) (d' : durable) : Prop := {
  us_head : find_round node (d_rounds d) = Some s;
  us_number : r_number s = number;
  us_self : r_self s = self;
  us_ext : find_round ext (d_rounds d) = Some e;
  us_hash : r_hash e <> 0;
  us_other : r_node e <> r_node s;
  us_written : d' = put_round node (mk_rr node node number 0 self ext) (put_link node (r_node e) (r_number e) d) }.

(* what updateExternal checks of the referenced round [e] *)
Record link_checked (d : durable) (id : N) (links : list (N * N)) (e : round_rec) : Prop := {
  lc_other : r_node e <> id;
  lc_forward : get_link (r_node e) links <= r_number e;
  lc_mirror : dur_link d id (r_node e) = get_link (r_node e) links }.
Unset Implicit Arguments.

Lemma store_start_ok d node number self ext fs d' :
  store_start_new_round d node (number + 1) self ext fs = Ok d' ->
  exists s e, start_stored d node number self ext fs s e d'.
Proof.
  unfold store_start_new_round. change debug_asserts with true.
  replace (negb (number + 1 =? 0)) with true by lia. cbn [andb].
  destruct (read_round d node) as [[s|]| |] eqn:Rs; [|destruct (read_round d ext) as [[]| |]|..]; try discriminate.
  destruct (read_round d ext) as [[e|]| |] eqn:Re; cbn [bind];
    destruct (negb (r_number s =? number + 1 - 1)) eqn:E1; try discriminate.
  destruct (r_node e =? r_node s) eqn:E2; [discriminate|].
  destruct (read_round d self) as [[o|]| |] eqn:Ro; try discriminate.
  destruct (r_number e <? dur_link d node (r_node e)) eqn:E3; [discriminate|]. intros [= <-].
  apply read_round_some in Rs as [Fs _], Re as [Fe He]. apply read_round_none in Ro.
  exists s, e. repeat split; try assumption; lia.
Qed.

Lemma store_update_ok d node number self ext d' :
  store_update_empty_head d node number self ext = Ok d' ->
  exists s e, update_stored d node number self ext s e d'.
Proof.
  unfold store_update_empty_head.
  destruct (read_round d node) as [[s|]| |] eqn:Rs; try discriminate. cbn [bind].
  destruct (negb (r_number s =? number)) eqn:E1; [discriminate|].
  destruct (negb (r_self s =? self)) eqn:E2; [discriminate|].
  destruct (read_round d ext) as [[e|]| |] eqn:Re; try discriminate. cbn [bind].
  destruct (r_node e =? r_node s) eqn:E3; [discriminate|]. intros [= <-].
  apply read_round_some in Rs as [Fs _], Re as [Fe He].
  exists s, e. repeat split; try assumption; lia.
Qed.

Lemma update_external_ok d fnode links e strict sanity links' :
  update_external d fnode links e strict sanity = Ok links' ->
  link_checked d fnode links e /\ links' = (r_node e, r_number e) :: links.
Proof.
  unfold update_external.
  destruct (fnode =? r_node e) eqn:E1; [discriminate|].
  destruct (r_number e <? get_link (r_node e) links) eqn:E2; [discriminate|].
  destruct (negb (dur_link d fnode (r_node e) =? get_link (r_node e) links)) eqn:E3; [discriminate|].
  destruct (strict && negb sanity); [discriminate|]. intros [= <-]. split; [split; lia | reflexivity].
Qed.

Definition chain_wf (c : chain) : Prop :=
  ch_id c = c_node (ch_cache c) /\ ch_id c = f_node (ch_final c).

Definition mirror (d : durable) (c : chain) : Prop :=
  forall n, get_link n (ch_links c) = dur_link d (ch_id c) n.

(* idl: the node ids, i.e. the keys of HEAD records.  That the external
   reference is none of them is the hypothesis [honest] of the transitions, kept
   as an invariant.  The last clause serves the dummy path of a start, which
   reads the previous external again: the link already holds its number. *)
Definition chain_inv (idl : list N) (d : durable) (c : chain) : Prop :=
  chain_wf c /\ mirror d c /\ ~ In (c_ext (ch_cache c)) idl /\
  exists x, find_round (c_ext (ch_cache c)) (d_rounds d) = Some x /\
            get_link (r_node x) (ch_links c) = r_number x.

(* what a transition of chain [id] may change in the durable records *)
Definition dur_frame (id : N) (d d' : durable) : Prop :=
  (forall from to, from <> id -> dur_link d' from to = dur_link d from to) /\
  (forall k x, k <> id -> find_round k (d_rounds d) = Some x -> find_round k (d_rounds d') = Some x).

Lemma dur_frame_refl id d : dur_frame id d d.
Proof. split; auto. Qed.

Lemma chain_inv_frame idl d d' id c :
  In id idl -> ch_id c <> id -> dur_frame id d d' -> chain_inv idl d c -> chain_inv idl d' c.
Proof.
  intros Hid Hne [F1 F2] (Hwf & Hm & Hx & x & Fx & Lx).
  split; [exact Hwf|]. split; [|split; [exact Hx|]].
  - intro n. rewrite F1 by exact Hne. apply Hm.
  - exists x. split; [|exact Lx]. apply F2; [|exact Fx]. intros <-. exact (Hx Hid).
Qed.

(* what an accepted transition of chain [c] leaves behind *)
Definition chain_moved (idl : list N) (d : durable) (c : chain) (d' : durable) (c' : chain) : Prop :=
  chain_inv idl d' c' /\ ch_id c' = ch_id c /\ dur_frame (ch_id c) d d'.

(* the end of both transitions: the storage call, then assignNewGraphRound's check *)
Lemma persist_cases {A} (x : res durable) (b : bool) (d : durable) (c1 c2 c3 : chain) (v : A) d' c' r
      (P : A -> Prop) (Q : Prop) :
  (x = Ok d' -> b = true -> c' = c2 -> P v) ->
  match x with
  | Ok d1 => if b then (d1, c2, Ok v) else (d1, c3, Panic)
  | _ => (d, c1, Panic)
  end = (d', c', r) ->
  match r with Ok v' => P v' | Err => Q | Panic => True end.
Proof. intro HP. destruct x as [d1| |]; [destruct b|..]; intros [= <- <- <-]; auto. Qed.

Section Trans.
Variable H : hin -> N.
Variable sort : list snap -> list snap.
Variable sort_ts : list snap -> list snap.

(* a branch of a transition that returns without writing *)
Ltac unwritten := intros [= <- <- <-]; cbn; auto.

(* Everything an accepted start did, in terms of the state before it.  [dummy]:
   [ext] is not stored yet, which a finalized start tolerates by referencing the
   previous external again; the links then stay. *)
Set Implicit Arguments.
Record start_effect (d : durable) (c : chain) (self ext ts : N) (finalized dummy : bool)
       (d' : durable) (c' : chain) (start end_ : N) (s e : round_rec)
       (k := ch_cache c) (id := ch_id c) (ext' := if dummy then c_ext k else ext) : Prop := {
  se_id : id = c_node k;
  se_final : as_final H sort (c_node k) (c_number k) (c_snaps k) = Ok (Some (start, end_, self));
  se_stored : start_stored d id (c_number k) self ext' start s e d';
  se_ordinary : dummy = false -> r_hash e = ext /\ link_checked d id (ch_links c) e;
  se_dummy : dummy = true -> finalized = true /\ find_round ext (d_rounds d) = None;
  se_chain : c' = mk_chain id (mk_fr (c_node k) (c_number k) start end_ self)
                    (mk_cr id (c_number k + 1) ts self ext' [])
                    (if dummy then ch_links c else (r_node e, r_number e) :: ch_links c) }.

Record update_effect (d : durable) (c : chain) (self ext : N) (d' : durable) (c' : chain) (s e : round_rec)
       (k := ch_cache c) (id := ch_id c) : Prop := {
  ue_empty : c_snaps k = [];
  ue_self : self = c_self k;
  ue_id : id = c_node k;
  ue_final : id = f_node (ch_final c);
  ue_stored : update_stored d id (c_number k) self ext s e d';
  ue_hash : r_hash e = ext;
  ue_link : link_checked d id (ch_links c) e;
  ue_chain : c' = mk_chain id (ch_final c) (mk_cr id (c_number k) (c_ts k) self ext [])
                    ((r_node e, r_number e) :: ch_links c) }.
Unset Implicit Arguments.

(* Err: by then ComputeRoundHash may have sorted the live round's slice in place,
   hence the second disjunct. *)
Lemma start_cases d c self ext ts finalized sanity d' c' r :
  start_new_round H sort d c self ext ts finalized sanity = (d', c', r) ->
  match r with
  | Ok dummy => exists start end_ s e, start_effect d c self ext ts finalized dummy d' c' start end_ s e
  | Err => d' = d /\ (c' = c \/ c' = set_snaps c (sort (c_snaps (ch_cache c))))
  | Panic => True
  end.
Proof.
  unfold start_new_round.
  destruct (N.eqb_spec (ch_id c) (c_node (ch_cache c))) as [Eid|_]; [|unwritten].
  destruct (as_final H sort (c_node (ch_cache c)) (c_number (ch_cache c)) (c_snaps (ch_cache c)))
    as [[[[start end_] h]|]| |] eqn:Ef; try (unwritten; fail).
  destruct (N.eqb_spec self h) as [<-|_]; [|unwritten].
  cbn [negb f_number f_start f_node].
  destruct (read_round d ext) as [[e0|]| |] eqn:Re; try (unwritten; fail).
  - destruct (N.eqb_spec (r_hash e0) ext) as [Ee|_]; [|unwritten].
    destruct (update_external d (c_node (ch_cache c)) (ch_links c) e0 (negb finalized) sanity) as [links| |] eqn:Eu;
      try (unwritten; fail).
    apply update_external_ok in Eu as [Hl ->]. apply read_round_some in Re as [Fe0 _].
    apply persist_cases. intros Est _ ->.
    apply store_start_ok in Est as (s & e & Hst). exists start, end_, s, e.
    assert (e0 = e) as -> by (pose proof (ss_ext Hst); congruence).
    rewrite <- Eid in Hl. split; [exact Eid | exact Ef | exact Hst | split; [exact Ee | exact Hl] | discriminate | reflexivity].
  - destruct finalized; [|unwritten].
    apply persist_cases. intros Est _ ->.
    apply store_start_ok in Est as (s & e & Hst). apply read_round_none in Re.
    exists start, end_, s, e. split; [exact Eid | exact Ef | exact Hst | discriminate | split; [reflexivity | exact Re] | reflexivity].
Qed.

Lemma update_cases d c self ext ts strict sanity d' c' r :
  update_empty_head d c self ext ts strict sanity = (d', c', r) ->
  match r with
  | Ok _ => exists s e, update_effect d c self ext d' c' s e
  | Err => d' = d /\ c' = c
  | Panic => True
  end.
Proof.
  unfold update_empty_head.
  destruct (c_snaps (ch_cache c)) eqn:Esn; [|unwritten].
  destruct (N.eqb_spec self (c_self (ch_cache c))) as [Es|_]; [|unwritten].
  destruct (read_round d ext) as [[e0|]| |] eqn:Re; try (unwritten; fail).
  destruct (N.eqb_spec (r_hash e0) ext) as [Ee|_]; [|unwritten].
  destruct (update_external d (f_node (ch_final c)) (ch_links c) e0 strict sanity) as [links| |] eqn:Eu;
    try (unwritten; fail).
  apply persist_cases. intros Est [[A1%N.eqb_eq A2%N.eqb_eq]%andb_true_iff _]%andb_true_iff ->.
  apply update_external_ok in Eu as [Hl ->]. apply read_round_some in Re as [Fe0 _].
  apply store_update_ok in Est as (s & e & Hst). exists s, e.
  assert (e0 = e) as -> by (pose proof (us_ext Hst); congruence).
  rewrite <- A1 in Hst |- *. rewrite <- A2 in Hl.
  split; [exact Esn | exact Es | exact A1 | exact A2 | exact Hst | exact Ee | exact Hl | reflexivity].
Qed.

(* Both accepted transitions write the head record and one LINK record of their
   own chain, [d1] being [d] with at most new ROUND keys, and leave the in-memory
   link at the value written. *)
Lemma transition_preserves idl d d1 c c' e hd :
  In (ch_id c) idl -> mirror d c ->
  (forall from to, dur_link d1 from to = dur_link d from to) ->
  (forall k x, find_round k (d_rounds d) = Some x -> find_round k (d_rounds d1) = Some x) ->
  chain_wf c' -> ch_id c' = ch_id c -> ~ In (c_ext (ch_cache c')) idl ->
  find_round (c_ext (ch_cache c')) (d_rounds d1) = Some e ->
  (forall n, get_link n (ch_links c') = if n =? r_node e then r_number e else get_link n (ch_links c)) ->
  let d' := put_round (ch_id c) hd (put_link (ch_id c) (r_node e) (r_number e) d1) in
  chain_moved idl d c d' c'.
Proof.
  intros Hid Hm Hl Hr Hwf Eid Hext Fe Hval d'.
  destruct (head_link_written (ch_id c) hd (r_node e) (r_number e) d1) as (_ & W2 & W3 & W4). fold d' in W2, W3, W4.
  split; [|split; [exact Eid|]].
  - split; [exact Hwf|]. split; [|split; [exact Hext|]].
    + intro n. rewrite Hval, Eid, W2, Hl. destruct (n =? r_node e); [reflexivity | apply Hm].
    + exists e. rewrite Hval, N.eqb_refl. split; [|reflexivity]. rewrite W4; [exact Fe|].
      intros E. rewrite E in Hext. contradiction.
  - split.
    + intros from to Hne. rewrite W3 by exact Hne. apply Hl.
    + intros k x Hne Fk. rewrite W4 by exact Hne. apply Hr, Fk.
Qed.

Lemma start_preserves idl d c self ext ts finalized dummy d' c' start end_ s e :
  In (ch_id c) idl -> ~ In ext idl -> chain_inv idl d c ->
  start_effect d c self ext ts finalized dummy d' c' start end_ s e ->
  chain_moved idl d c d' c'.
Proof.
  intros Hid Hext (_ & Hm & Hx & x & Fx & Lx) Hef.
  pose proof (se_stored Hef) as St. pose proof (ss_ext St) as Fe. pose proof (ss_free St) as Fself.
  rewrite (se_chain Hef), (ss_written St).
  apply (transition_preserves idl d (put_round self (closed_rec self start s) d) c _ e); cbn [ch_id ch_cache c_ext ch_links].
  - exact Hid.
  - exact Hm.
  - (* LINK records of d1 *) reflexivity.
  - (* ROUND records of d1: [self] was free *)
    intros k x0 Fk. rewrite find_put_round. destruct (N.eqb_spec k self) as [->|_]; [congruence | exact Fk].
  - (* chain_wf c' *) split; [reflexivity | exact (se_id Hef)].
  - reflexivity.
  - (* the new external is no node id *) destruct dummy; assumption.
  - (* and is stored *) rewrite find_put_round. destruct (N.eqb_spec (if dummy then c_ext (ch_cache c) else ext) self) as [E|_]; [congruence | exact Fe].
  - (* the in-memory links *) intro n. destruct dummy; [|apply get_link_cons].
    (* dummy path: [e] is the previous external, the last clause of [chain_inv] *)
    rewrite Fx in Fe. injection Fe as ->. destruct (N.eqb_spec n (r_node e)) as [->|_]; [exact Lx | reflexivity].
Qed.

Lemma update_preserves idl d c self ext d' c' s e :
  In (ch_id c) idl -> ~ In ext idl -> chain_inv idl d c ->
  update_effect d c self ext d' c' s e ->
  chain_moved idl d c d' c'.
Proof.
  intros Hid Hext (_ & Hm & _) Hef. rewrite (ue_chain Hef), (us_written (ue_stored Hef)).
  apply (transition_preserves idl d d c _ e);
    [exact Hid | exact Hm | reflexivity | auto | split; [reflexivity | exact (ue_final Hef)] | reflexivity | exact Hext
    | exact (us_ext (ue_stored Hef)) |].
  intro n. apply get_link_cons.
Qed.

Definition ids (w : world) : list N := map ch_id (w_chains w).
Definition world_inv (w : world) : Prop :=
  NoDup (ids w) /\ Forall (chain_inv (ids w) (w_dur w)) (w_chains w).

(* The hypothesis on histories: an external reference (a round hash) is no node
   id.  ROUND/<node id>, the HEAD record, and ROUND/<hash> share one key space. *)
Definition honest (idl : list N) (o : op) : Prop :=
  match o with
  | OAdd _ _ => True
  | OStart _ _ ext _ _ _ => ~ In ext idl
  | OUpdate _ _ ext _ _ _ => ~ In ext idl
  end.

Lemma find_chain_some cid l c : find_chain cid l = Some c -> In c l /\ ch_id c = cid.
Proof.
  induction l as [|x l IH]; [discriminate|]. cbn [find_chain].
  destruct (N.eqb_spec (ch_id x) cid) as [E|_].
  - intros [= <-]. split; [left; reflexivity | exact E].
  - intro Hf. split; [right|]; apply IH, Hf.
Qed.

Lemma put_chain_ids c' l : map ch_id (put_chain c' l) = map ch_id l.
Proof.
  unfold put_chain. rewrite map_map. apply map_ext. intro x.
  destruct (N.eqb_spec (ch_id x) (ch_id c')); auto.
Qed.

Lemma put_chain_forall2 (R : chain -> chain -> Prop) c c' l :
  (forall x, R x x) -> NoDup (map ch_id l) -> In c l -> ch_id c' = ch_id c -> R c c' ->
  Forall2 R l (put_chain c' l).
Proof.
  intros Hrefl Hnd Hin Eid Hr. unfold put_chain.
  assert (Hl : Forall (fun x => In x l) l) by (apply Forall_forall; auto).
  induction Hl as [|x t Hx _ IH]; constructor; [|exact IH].
  destruct (N.eqb_spec (ch_id x) (ch_id c')) as [E|_]; [|apply Hrefl].
  rewrite (NoDup_map_inj ch_id l x c Hnd Hx Hin); [exact Hr | congruence].
Qed.

Lemma add_snapshot_cases c s c' r :
  add_snapshot sort_ts c s = (c', r) -> c' = c \/ r = Ok tt /\ exists l, c' = set_snaps c l.
Proof.
  unfold add_snapshot.
  destruct (validate_snapshot sort_ts _ (c_snaps (ch_cache c)) s false) as [l1 [[]| |]];
    try (intros [= <- <-]; auto; fail).
  destruct (validate_snapshot sort_ts _ l1 s true) as [l2 [[]| |]]; intros [= <- <-]; eauto.
Qed.

Lemma world_inv_put w c d' c' :
  world_inv w -> In c (w_chains w) ->
  chain_moved (ids w) (w_dur w) c d' c' ->
  let w' := mk_world d' (put_chain c' (w_chains w)) in world_inv w' /\ ids w' = ids w.
Proof.
  intros [Hnd Hall] Hin (Hc' & Eid & Hfr). unfold world_inv, ids. cbn [w_chains w_dur]. rewrite put_chain_ids.
  split; [split; [exact Hnd|] | reflexivity]. rewrite Forall_forall in Hall.
  unfold put_chain. apply Forall_map, Forall_forall. intros x Hx.
  destruct (N.eqb_spec (ch_id x) (ch_id c')) as [E|Hne]; [exact Hc'|]. rewrite Eid in Hne.
  exact (chain_inv_frame _ _ _ _ _ (in_map ch_id _ _ Hin) Hne Hfr (Hall x Hx)).
Qed.

Lemma step_preserves w o w' k :
  world_inv w -> honest (ids w) o -> step H sort sort_ts w o = (w', k) -> k <> 2 ->
  world_inv w' /\ ids w' = ids w.
Proof.
  intros Hw Hh Hs Hk. unfold step in Hs.
  destruct (find_chain (op_chain o) (w_chains w)) as [c|] eqn:Hf; [|injection Hs as <- <-; contradiction].
  apply find_chain_some in Hf as [Hin _].
  pose proof (proj1 (Forall_forall _ _) (proj2 Hw) c Hin) as Hc.
  pose proof (in_map ch_id _ _ Hin : In (ch_id c) (ids w)) as Hid.
  pose proof (fun d' c' => world_inv_put w c d' c' Hw Hin) as Hfin.
  (* [chain_inv] does not read the snapshot slice: by conversion [Hsame] also serves
     the branches that reorder or extend it *)
  assert (Hsame : chain_moved (ids w) (w_dur w) c (w_dur w) c)
    by (split; [exact Hc | split; [reflexivity | apply dur_frame_refl]]).
  destruct o as [cid s | cid self ext ts finalized sanity | cid self ext ts strict sanity]; cbn [honest] in Hh.
  - destruct (add_snapshot sort_ts c s) as [c' r] eqn:Ea. injection Hs as <- <-.
    apply add_snapshot_cases in Ea as [->|(_ & l & ->)]; apply Hfin, Hsame.
  - destruct (start_new_round H sort (w_dur w) c self ext ts finalized sanity) as [[d' c'] r] eqn:Est.
    injection Hs as <- <-. apply start_cases in Est. apply Hfin.
    destruct r as [dummy| |]; [|destruct Est as [-> [->| ->]]; exact Hsame|contradiction].
    destruct Est as (start & end_ & s & e & Est). eapply start_preserves; eassumption.
  - destruct (update_empty_head (w_dur w) c self ext ts strict sanity) as [[d' c'] r] eqn:Est.
    injection Hs as <- <-. apply update_cases in Est. apply Hfin.
    destruct r as [[]| |]; [|destruct Est as [-> ->]; exact Hsame|contradiction].
    destruct Est as (s & e & Est). eapply update_preserves; eassumption.
Qed.

Theorem steps_preserve : forall os w w' ks,
  world_inv w -> Forall (honest (ids w)) os ->
  steps H sort sort_ts w os = (w', ks) -> ~ In 2 ks -> world_inv w'.
Proof.
  induction os as [|o os IH]; intros w w' ks Hw Hh Hs Hk.
  - injection Hs as <- _. exact Hw.
  - inversion Hh as [|? ? Ho Hos]; subst. cbn [steps] in Hs.
    destruct (step H sort sort_ts w o) as [w1 k] eqn:Est.
    destruct (N.eqb_spec k 2) as [->|Hk2].
    + injection Hs as _ <-. exfalso. apply Hk. left. reflexivity.
    + destruct (steps H sort sort_ts w1 os) as [wf ks'] eqn:Est2. injection Hs as <- <-.
      destruct (step_preserves _ _ _ _ Hw Ho Est Hk2) as [Hw1 Eids].
      apply (IH w1 wf ks'); [exact Hw1 | rewrite Eids; exact Hos | exact Est2|].
      intro Hin. apply Hk. right. exact Hin.
Qed.

Theorem world_inv_mirror : forall w, world_inv w ->
  forall c, In c (w_chains w) -> forall n, get_link n (ch_links c) = dur_link (w_dur w) (ch_id c) n.
Proof.
  intros w [_ Hall] c Hin n. rewrite Forall_forall in Hall. destruct (Hall c Hin) as [_ [Hm _]]. apply Hm.
Qed.

Definition same_but_order (a b : chain) : Prop :=
  exists l, Permutation l (c_snaps (ch_cache a)) /\ b = set_snaps a l.

Lemma same_but_order_refl a : same_but_order a a.
Proof. exists (c_snaps (ch_cache a)). split; [apply Permutation_refl|]. destruct a as [i f [] ls]. reflexivity. Qed.

Theorem step_reject_unchanged : forall w o w',
  sort_spec snap_lt sort -> NoDup (ids w) ->
  step H sort sort_ts w o = (w', 1) ->
  w_dur w' = w_dur w /\ Forall2 same_but_order (w_chains w) (w_chains w').
Proof.
  intros w o w' HS Hnd Hs. unfold step in Hs.
  destruct (find_chain (op_chain o) (w_chains w)) as [c|] eqn:Hf; [|discriminate Hs].
  apply find_chain_some in Hf as [Hin _].
  assert (Hfin : forall c', ch_id c' = ch_id c -> same_but_order c c' ->
                 Forall2 same_but_order (w_chains w) (put_chain c' (w_chains w)))
    by (intros c'; apply put_chain_forall2; [apply same_but_order_refl | exact Hnd | exact Hin]).
  destruct o as [cid s | cid self ext ts finalized sanity | cid self ext ts strict sanity].
  - destruct (add_snapshot sort_ts c s) as [c' r] eqn:Ea.
    apply add_snapshot_cases in Ea as [->|(-> & _)]; [|discriminate Hs].
    injection Hs as <- _. split; [reflexivity|]. apply Hfin; [reflexivity | apply same_but_order_refl].
  - destruct (start_new_round H sort (w_dur w) c self ext ts finalized sanity) as [[d' c'] r] eqn:Est.
    apply start_cases in Est. destruct r as [[|]| |]; try discriminate Hs. injection Hs as <-.
    destruct Est as [-> [->| ->]]; (split; [reflexivity|]); (apply Hfin; [reflexivity|]).
    + apply same_but_order_refl.
    + exists (sort (c_snaps (ch_cache c))). split; [apply (proj1 (HS _)) | reflexivity].
  - destruct (update_empty_head (w_dur w) c self ext ts strict sanity) as [[d' c'] r] eqn:Est.
    apply update_cases in Est. destruct r as [[]| |]; try discriminate Hs. injection Hs as <-.
    destruct Est as [-> ->]. split; [reflexivity|]. apply Hfin; [reflexivity | apply same_but_order_refl].
Qed.
End Trans.
