(* What the two walks of Proofs/TxCodec.v give for the functions built around the parsers, the
   ones C06 speaks of: unmarshal (size cap, decoder, re-encoding test), the payload, which is the
   transaction without its authorization, and the payload hash. *)
From Coq Require Import List ZArith NArith Bool Lia ZifyN ZifyNat ZifyBool Permutation.
Require Import Mixin.Base.Res Mixin.Gen.Consts Mixin.Model.TxCodec Mixin.Proofs.Res Mixin.Proofs.TxCodec.
Import ListNotations.
Open Scope N_scope.

(* structurally valid: Go type ranges, the encoder's non-panic guards, the decoder's count
   limits (SliceCountLimit references, keys and signature maps) and the size cap *)
Definition wf_tx (t : tx) : Prop :=
  wf_tx_lim slice_limit t /\ blen (ser_tx t) <= tx_max_size.

Lemma enc_tx_wf : forall lim t, wf_tx_lim lim t -> enc_tx t = Ok (ser_tx t).
Proof.
  intros lim t (Wv & _ & _ & _ & _ & _ & _ & O). unfold enc_tx. rewrite Wv, N.eqb_refl, O. reflexivity.
Qed.

Lemma unmarshal_inv : forall b t, unmarshal b = Ok t ->
  blen b <= tx_max_size /\ dec_tx b = Some t /\ enc_tx t = Ok b.
Proof.
  intros b t H. unfold unmarshal in H.
  destruct (tx_max_size <? blen b) eqn:L; [discriminate|]. apply N.ltb_ge in L.
  destruct (dec_tx b) as [t'|]; [|discriminate].
  destruct (enc_tx t') as [c| |] eqn:E; try discriminate.
  destruct (bytes_eqb c b) eqn:Eb; [|discriminate].
  injection H as ->. apply bytes_eqb_eq in Eb as ->. auto.
Qed.

Lemma enc_tx_ok : forall t b, enc_tx t = Ok b ->
  t_version t = tx_version /\ ok_tx t = true /\ b = ser_tx t.
Proof.
  unfold enc_tx. intros t b H. destruct (_ && _) eqn:G; [|discriminate].
  apply andb_prop in G as [->%N.eqb_eq ->]. injection H as <-. auto.
Qed.

Lemma unmarshal_roundtrip : forall t, wf_tx t -> enc_tx t = Ok (ser_tx t) /\ unmarshal (ser_tx t) = Ok t.
Proof.
  intros t [W S%N.ltb_ge]. pose proof (enc_tx_wf _ _ W) as E. split; [exact E|].
  unfold unmarshal, dec_tx. rewrite S, (dec_tx_lim_ser _ _ W), E, bytes_eqb_refl. reflexivity.
Qed.

Lemma unmarshal_no_panic : forall b, bytes_ok b -> unmarshal b <> Panic.
Proof.
  intros b Hb. unfold unmarshal.
  destruct (tx_max_size <? blen b); [discriminate|].
  destruct (dec_tx b) as [t|] eqn:D; [|discriminate].
  (* the re-encoding does not panic: what the decoder returns satisfies the encoder's guards *)
  destruct (dec_tx_lim_ok slice_limit ltac:(discriminate) b t D Hb) as [V O].
  unfold enc_tx. rewrite V, N.eqb_refl, O. cbn [andb].
  destruct (bytes_eqb (ser_tx t) b); discriminate.
Qed.

Lemma sig_insert_comm : forall x y s, fst x <> fst y ->
  sig_insert x (sig_insert y s) = sig_insert y (sig_insert x s).
Proof.
  intros x y s Hne. induction s as [|f l IH].
  - cbn [sig_insert]. destruct (fst x <? fst y) eqn:A; destruct (fst y <? fst x) eqn:B; try reflexivity; lia.
  - cbn [sig_insert].
    destruct (fst x <? fst f) eqn:A; destruct (fst y <? fst f) eqn:B; cbn [sig_insert];
      rewrite ?A, ?B.
    + destruct (fst x <? fst y) eqn:C; destruct (fst y <? fst x) eqn:D; try reflexivity; lia.
    + destruct (fst y <? fst x) eqn:D; [lia | reflexivity].
    + destruct (fst x <? fst y) eqn:D; [lia | reflexivity].
    + rewrite IH. reflexivity.
Qed.

Lemma keys_distinct_NoDup : forall m, keys_distinct m = true <-> NoDup (map fst m).
Proof.
  induction m as [|e m IH]; cbn [keys_distinct map]; [split; [constructor|reflexivity]|].
  rewrite NoDup_cons_iff, andb_true_iff, negb_true_iff, IH, <- not_true_iff_false, existsb_exists, in_map_iff.
  apply and_iff_compat_r, not_iff_compat. split; intros [f Hf]; exists f; rewrite N.eqb_eq in *; tauto.
Qed.

(* a Go map has no order: any listing of the same entries sorts to the same list *)
Lemma sig_sort_perm : forall m1 m2, Permutation m1 m2 -> keys_distinct m1 = true ->
  sig_sort m1 = sig_sort m2.
Proof.
  intros m1 m2 P. induction P as [| x l l' P IH | x y l | l l' l'' P1 IH1 P2 IH2]; intro D.
  - reflexivity.
  - cbn [sig_sort]. rewrite IH; [reflexivity|]. cbn [keys_distinct] in D. apply andb_true_iff in D. apply D.
  - cbn [sig_sort]. apply sig_insert_comm. apply keys_distinct_NoDup in D. cbn [map] in D.
    inversion D as [|? ? Hn _]; subst. intro E. apply Hn. left. symmetry. exact E.
  - rewrite IH1 by exact D. apply IH2. apply keys_distinct_NoDup. apply keys_distinct_NoDup in D.
    eapply Permutation_NoDup; [apply Permutation_map; exact P1 | exact D].
Qed.

(* only the payload fields are constrained: type ranges and the encoder's own guards *)
Definition wf_payload (t : tx) : Prop := wf_tx_lim max_int (payload t).

Lemma payload_idem : forall t, payload (payload t) = payload t.
Proof. reflexivity. Qed.

Lemma wf_tx_lim_payload : forall lim lim' t, lim <= lim' -> wf_tx_lim lim t -> wf_tx_lim lim' (payload t).
Proof.
  intros lim lim' t Hl (Wv & Wa & Wi & Wo & Wr & Wrl & _ & O).
  unfold wf_tx_lim, payload. cbn [t_version t_asset t_inputs t_outputs t_refs t_extra t_auth].
  repeat split; try assumption.
  - eapply Forall_impl; [|exact Wo]. intros o (A & B & C & D & E). repeat split; try assumption. lia.
  - lia.
  - constructor.
  - discriminate.
  - unfold ok_tx in *. cbn [t_inputs t_outputs t_refs t_extra t_auth].
    apply andb_prop in O as [-> _]. reflexivity.
Qed.

Lemma ser_auth_blen a : 2 <= blen (ser_auth a).
Proof.
  destruct a as [ms|sg s]; cbn [ser_auth]; [|unfold ser_agg];
    rewrite blen_app; unfold blen at 1, ser_u16; rewrite be_enc_length; lia.
Qed.

(* the empty authorization of the payload is the shortest one, so the size cap is kept too *)
Lemma wf_tx_payload t : wf_tx t -> wf_tx (payload t).
Proof.
  intros [W S]. split; [exact (wf_tx_lim_payload _ _ t (N.le_refl _) W)|].
  pose proof (ser_auth_blen (t_auth t)) as A.
  unfold ser_tx, payload in *. cbn [t_version t_asset t_inputs t_outputs t_refs t_extra t_auth].
  rewrite !blen_app in *. change (blen (ser_auth (SigMaps []))) with 2. lia.
Qed.

Lemma enc_tx_injective : forall lim t1 t2, wf_tx_lim lim t1 -> wf_tx_lim lim t2 ->
  enc_tx t1 = enc_tx t2 -> t1 = t2.
Proof.
  intros lim t1 t2 W1 W2 E. rewrite (enc_tx_wf _ _ W1), (enc_tx_wf _ _ W2) in E.
  pose proof (dec_tx_lim_ser _ _ W1). pose proof (dec_tx_lim_ser _ _ W2). congruence.
Qed.

Lemma enc_payload_injective : forall t1 t2, wf_payload t1 -> wf_payload t2 ->
  enc_payload t1 = enc_payload t2 -> payload t1 = payload t2.
Proof. intros t1 t2. apply enc_tx_injective. Qed.

Section Hash.
  Context {Hsh : Type} (H : bytes -> Hsh).

  Lemma payload_hash_ok : forall t h, payload_hash H t = Ok h ->
    exists b, enc_payload t = Ok b /\ H b = h.
  Proof.
    intros t h (b & E & ->)%rmap_ok. exists b. split; [|reflexivity].
    unfold payload_marshal, debug_checked in E. destruct (enc_payload t) as [c| |]; [|discriminate E..].
    destruct config_debug; [destruct (unmarshal c)|]; congruence.
  Qed.

  Lemma payload_hash_wf : forall t, wf_tx t ->
    payload_hash H t = Ok (H (ser_tx (payload t))).
  Proof.
    intros t Wp%wf_tx_payload.
    destruct (unmarshal_roundtrip _ Wp) as [E U].
    unfold payload_hash, payload_marshal, enc_payload, debug_checked. rewrite E.
    destruct config_debug; [rewrite U|]; reflexivity.
  Qed.
End Hash.
