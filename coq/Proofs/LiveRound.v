(* Lemmas about Model/LiveRound.v: the live-round invariant is preserved by every
   call of validateSnapshot, and a round satisfying it closes without panic. *)
From Coq Require Import List ZArith NArith Bool Lia ZifyN ZifyBool Permutation Sorted.
Require Import Mixin.Base.Res Mixin.Gen.Consts Mixin.Model.RoundHash Mixin.Model.LiveRound
               Mixin.Proofs.Lists Mixin.Proofs.RoundHash.
Import ListNotations.
Open Scope N_scope.

(* only these two facts about the gap constant are used *)
Lemma gap_pos : 0 < round_gap.
Proof. vm_compute. reflexivity. Qed.
Lemma gap_small : 2 * round_gap <= two64.
Proof. vm_compute. discriminate. Qed.

Lemma add64_cases a b : a < two64 -> b <= two64 ->
  (a + b < two64 /\ add64 a b = a + b) \/ (two64 <= a + b /\ add64 a b = a + b - two64).
Proof.
  intros Ha Hb. unfold add64. change two64 with 18446744073709551616 in *.
  destruct (N.lt_ge_cases (a + b) 18446744073709551616) as [Hlt|Hge].
  - left. split; [exact Hlt | apply N.mod_small, Hlt].
  - right. split; [exact Hge|]. symmetry. apply N.mod_unique with (q := 1); lia.
Qed.

(* the test [start + gap <= end] of Gap and ComputeRoundHash, in uint64 arithmetic:
   below the wrap region it compares the span with the gap, inside it always holds *)
Lemma span_ok lo hi : lo < two64 - round_gap -> hi < lo + round_gap -> (add64 lo round_gap <=? hi) = false.
Proof.
  intros Hlo Hhi. pose proof gap_small. destruct (add64_cases lo round_gap) as [[_ ->]|[? _]]; lia.
Qed.

Lemma span_wrap lo hi : two64 - round_gap <= lo < two64 -> two64 - round_gap <= hi ->
  (add64 lo round_gap <=? hi) = true.
Proof.
  intros Hlo Hhi. pose proof gap_small. pose proof gap_pos.
  destruct (add64_cases lo round_gap) as [[? _]|[_ ->]]; lia.
Qed.

Lemma accept_span s lo hi : lo <= hi -> hi < two64 -> s_ts s < two64 ->
  (add64 lo round_gap <=? hi) = false -> gap_rejects s lo hi = false ->
  hi < s_ts s + round_gap /\ s_ts s < lo + round_gap.
Proof.
  unfold gap_rejects. intros Hle Hhi Hs Hp%N.leb_gt Hr. pose proof gap_small.
  rewrite (proj2 (N.leb_le _ _) Hle) in Hr. apply orb_false_iff in Hr as [Ha Hb].
  (* [lo + gap] does not wrap, since it exceeds [hi >= lo] *)
  destruct (add64_cases lo round_gap) as [[L E]|[L E]]; [lia | lia | | lia]. rewrite E in *. split.
  - destruct (N.ltb_spec (s_ts s) lo) as [Ht|Ht]; [|lia]. apply N.leb_gt in Ha.
    unfold add64 in Ha. rewrite N.mod_small in Ha by lia. exact Ha.
  - destruct (N.ltb_spec hi (s_ts s)) as [Ht|Ht]; [|lia]. apply N.leb_gt in Hb. exact Hb.
Qed.

Definition disjoint_txs (a b : snap) : Prop := forall t, In t (s_txs a) -> ~ In t (s_txs b).

(* The live-round invariant.  [ok_span] is stated for all ordered pairs (in
   unbounded arithmetic), which says max - min < gap without naming max and
   min; [ok_u64] is a field because [accept_span] needs hi < 2^64. *)
Record round_ok (l : list snap) : Prop := mk_round_ok {
  ok_hash : NoDup (map s_hash l);
  ok_ts : NoDup (map s_ts l);
  ok_txs : forall a b, In a l -> In b l -> s_hash a <> s_hash b -> disjoint_txs a b;
  ok_day : forall a b, In a l -> In b l -> s_ts a / one_day = s_ts b / one_day;
  ok_span : forall a b, In a l -> In b l -> s_ts b < s_ts a + round_gap;
  ok_u64 : forall a, In a l -> s_ts a < two64 }.

(* Below 2^64 - gap the sum start + gap of Gap / ComputeRoundHash does not wrap.
   The node never sees other timestamps (nanoseconds since 1970 reach 2^64 in
   2554); C19_close_unguarded_refuted shows that closing needs the guard. *)
Definition guarded (l : list snap) : Prop := forall a, In a l -> s_ts a < two64 - round_gap.
Definition in_wrap (l : list snap) : Prop := forall a, In a l -> two64 - round_gap <= s_ts a < two64.
Definition all_encodable (l : list snap) : Prop := Forall (fun cs => encodable cs = true) l.
Definition wf_cand (number : N) (s : snap) : Prop :=
  s_round s = number /\ s_hash s <> 0 /\ encodable s = true /\ s_ts s < two64 - round_gap.

Lemma round_ok_nil : round_ok [].
Proof. constructor; cbn; try constructor; intros; contradiction. Qed.

Lemma round_ok_perm l l' : Permutation l l' -> round_ok l -> round_ok l'.
Proof.
  intros HP [H1 H2 H3 H4 H5 H6].
  assert (Hin : forall x, In x l' -> In x l) by (intro x; apply Permutation_in, Permutation_sym, HP).
  constructor; [rewrite <- HP; exact H1 | rewrite <- HP; exact H2 | ..]; auto.
Qed.

(* s the newcomer, cs a member of the round *)
Definition compatible (s cs : snap) : Prop :=
  s_hash cs <> s_hash s /\ s_ts cs <> s_ts s /\ s_ts cs / one_day = s_ts s / one_day /\
  disjoint_txs s cs /\ disjoint_txs cs s /\
  s_ts cs < s_ts s + round_gap /\ s_ts s < s_ts cs + round_gap.

Lemma pairwise_cons {A} (R : A -> A -> Prop) s l :
  R s s -> (forall c, In c l -> R s c /\ R c s) -> (forall a b, In a l -> In b l -> R a b) ->
  forall a b, In a (s :: l) -> In b (s :: l) -> R a b.
Proof. intros Hs Hc Hl a b [<-|Ha] [<-|Hb]; auto; apply Hc; assumption. Qed.

Lemma round_ok_cons l s : round_ok l -> s_ts s < two64 ->
  (forall cs, In cs l -> compatible s cs) -> round_ok (s :: l).
Proof.
  intros [H1 H2 H3 H4 H5 H6] Hs Hc. constructor; cbn [map].
  - constructor; [|exact H1]. intros (cs & E & Hcs)%in_map_iff. exact (proj1 (Hc cs Hcs) E).
  - constructor; [|exact H2]. intros (cs & E & Hcs)%in_map_iff. exact (proj1 (proj2 (Hc cs Hcs)) E).
  - refine (pairwise_cons _ s l _ _ H3); [intros []; reflexivity|].
    intros c Hcs. destruct (Hc c Hcs) as (_ & _ & _ & C4 & C5 & _). auto.
  - refine (pairwise_cons _ s l eq_refl _ H4). intros c Hcs. destruct (Hc c Hcs) as (_ & _ & C3 & _). auto.
  - refine (pairwise_cons _ s l _ _ H5); [pose proof gap_pos; lia|].
    intros c Hcs. destruct (Hc c Hcs) as (_ & _ & _ & _ & _ & C6 & C7). auto.
  - intros a [<-|Ha]; auto.
Qed.

Lemma round_ok_snoc l s : round_ok l -> s_ts s < two64 ->
  (forall cs, In cs l -> compatible s cs) -> round_ok (l ++ [s]).
Proof. intros Hl Hs Hc. apply (round_ok_perm (s :: l)); [apply Permutation_cons_append | apply round_ok_cons; assumption]. Qed.

Lemma shares_tx_false s cs : shares_tx s cs = false -> disjoint_txs s cs /\ disjoint_txs cs s.
Proof.
  unfold shares_tx. rewrite <- not_true_iff_false, existsb_exists. intros Hs.
  assert (K : disjoint_txs s cs).
  { intros t Ht Hu. apply Hs. exists t. split; [exact Ht|]. apply existsb_exists. exists t. split; [exact Hu | apply N.eqb_refl]. }
  split; [exact K | intros t Ht Hu; exact (K t Hu Ht)].
Qed.

Lemma scan_ok s l : scan s l = Ok tt -> forall cs, In cs l ->
  s_hash cs <> s_hash s /\ s_ts cs <> s_ts s /\ s_ts cs / one_day = s_ts s / one_day /\
  disjoint_txs s cs /\ disjoint_txs cs s.
Proof.
  induction l as [|c l IH]; intros Hs cs Hin; [contradiction|]. cbn [scan] in Hs.
  destruct (N.eqb_spec (s_hash c) (s_hash s)) as [|C1]; [discriminate|].
  destruct (N.eqb_spec (s_ts c) (s_ts s)) as [|C2]; [discriminate|].
  destruct (N.eqb_spec (s_ts c / one_day) (s_ts s / one_day)) as [C3|]; [|discriminate].
  destruct (shares_tx s c) eqn:E3; [destruct (encodable c); discriminate|].
  destruct Hin as [<-|Hin]; [|apply IH; assumption].
  destruct (shares_tx_false _ _ E3). auto.
Qed.

Lemma scan_no_panic s l : Forall (fun cs => encodable cs = true) l -> scan s l <> Panic.
Proof.
  intros HF. induction HF as [|c l Hc HF IH]; cbn [scan]; [discriminate|].
  destruct (_ || _); [discriminate|]. destruct (negb _); [discriminate|].
  destruct (shares_tx s c); [rewrite Hc; discriminate | exact IH].
Qed.

Lemma ts_lt_ts a b : ts_lt b a = false -> s_ts a <= s_ts b.
Proof. apply N.ltb_ge. Qed.

Section WithSort.
Variable sort_ts : list snap -> list snap.
Hypothesis sort_ts_ok : sort_spec ts_lt sort_ts.

Lemma gap_of_fst_perm l : Permutation (fst (gap_of sort_ts l)) l.
Proof.
  unfold gap_of. destruct l as [|x l]; [reflexivity|]. rewrite <- (proj1 (sort_ts_ok (x :: l))) at 2.
  destruct (sort_ts (x :: l)) as [|s0 sl]; [reflexivity|]. destruct (_ <=? _); reflexivity.
Qed.

Lemma gap_of_nonempty l : l <> [] ->
  exists lo hi, In lo l /\ In hi l /\
    (forall s, In s l -> s_ts lo <= s_ts s <= s_ts hi) /\
    gap_of sort_ts l =
      (sort_ts l, if add64 (s_ts lo) round_gap <=? s_ts hi then Panic else Ok (s_ts lo, s_ts hi)).
Proof.
  intros Hne. destruct (sort_bounds s_ts ts_lt ts_lt_ts sort_ts sort_ts_ok l Hne) as (s0 & sl & E & Hlo & Hhi & Hb).
  exists s0, (last (s0 :: sl) s0). do 3 (split; [assumption|]).
  unfold gap_of. destruct l; [contradiction|]. rewrite E. destruct (_ <=? _); reflexivity.
Qed.

Lemma validate_cases number l s add l' r :
  validate_snapshot sort_ts number l s add = (l', r) ->
  (r = Ok tt /\ scan s l = Ok tt /\
   exists sl lo hi, gap_of sort_ts l = (sl, Ok (lo, hi)) /\ gap_rejects s lo hi = false /\
                    l' = if add then sl ++ [s] else sl) \/
  (r <> Ok tt /\ Permutation l' l).
Proof.
  unfold validate_snapshot.
  destruct (_ || _); [intros [= <- <-]; right; split; [discriminate | reflexivity]|].
  destruct (scan s l) as [[]| |]; try (intros [= <- <-]; right; split; [discriminate | reflexivity]).
  pose proof (gap_of_fst_perm l) as HP. destruct (gap_of sort_ts l) as [sl [[lo hi]| |]]; cbn [fst] in HP;
    try (intros [= <- <-]; right; split; [discriminate | exact HP]).
  destruct (gap_rejects s lo hi) eqn:Er; [intros [= <- <-]; right; split; [discriminate | exact HP]|].
  intros Hv. left. split; [destruct add; congruence|]. split; [reflexivity|].
  exists sl, lo, hi. destruct add; injection Hv as <- _; auto.
Qed.

Lemma validate_perm number l s add l' r :
  validate_snapshot sort_ts number l s add = (l', r) ->
  (r = Ok tt /\ add = true /\ exists sl, Permutation sl l /\ l' = sl ++ [s]) \/
  ((r <> Ok tt \/ add = false) /\ Permutation l' l).
Proof.
  intros [(-> & _ & sl & lo & hi & Hg & _ & ->)|[Hr HP]]%validate_cases; [|right; auto].
  pose proof (gap_of_fst_perm l) as HP. rewrite Hg in HP. destruct add; [left; eauto | right; auto].
Qed.

Lemma validate_accept_compatible number l s add l' :
  round_ok l -> s_ts s < two64 ->
  validate_snapshot sort_ts number l s add = (l', Ok tt) ->
  forall cs, In cs l -> compatible s cs.
Proof.
  intros Hok Hs [(_ & Hsc & sl & lo' & hi' & Hg & Hrej & _)|[Hr _]]%validate_cases cs Hcs; [|destruct Hr; reflexivity].
  destruct (scan_ok s l Hsc cs Hcs) as (C1 & C2 & C3 & C4 & C5).
  destruct (gap_of_nonempty l) as (lo & hi & Hlo & Hhi & Hb & Hg'); [intros ->; contradiction|].
  rewrite Hg' in Hg. destruct (add64 (s_ts lo) round_gap <=? s_ts hi) eqn:Ep; [discriminate|]. injection Hg as _ <- <-.
  destruct (accept_span s _ _ (proj1 (Hb hi Hhi)) (ok_u64 l Hok hi Hhi) Hs Ep Hrej) as [A1 A2].
  destruct (Hb cs Hcs) as [B1 B2]. repeat split; auto.
  - exact (N.le_lt_trans _ _ _ B2 A1).
  - exact (N.lt_le_trans _ _ _ A2 (proj1 (N.add_le_mono_r _ _ _) B1)).
Qed.

Lemma validate_preserves number l s add l' r :
  round_ok l -> s_ts s < two64 ->
  validate_snapshot sort_ts number l s add = (l', r) -> round_ok l'.
Proof.
  intros Hok Hs Hv. destruct (validate_perm _ _ _ _ _ _ Hv) as [(-> & -> & sl & HP & ->)|[_ HP]];
    [|exact (round_ok_perm _ _ (Permutation_sym HP) Hok)].
  apply round_ok_snoc; [exact (round_ok_perm _ _ (Permutation_sym HP) Hok) | exact Hs|].
  intros cs Hcs%(Permutation_in _ HP). exact (validate_accept_compatible _ _ _ _ _ Hok Hs Hv cs Hcs).
Qed.

Theorem run_invariant : forall number cands,
  Forall (fun s => s_ts s < two64) cands -> round_ok (run sort_ts number cands).
Proof.
  intros number cands HF. unfold run. apply fold_left_inv; [|exact round_ok_nil]. intros l s Hin Hok. unfold accept.
  destruct (validate_snapshot sort_ts number l s true) as [l' r] eqn:Hv.
  exact (validate_preserves _ _ _ _ _ _ Hok (proj1 (Forall_forall _ _) HF s Hin) Hv).
Qed.

Lemma gap_of_no_panic l : round_ok l -> guarded l -> snd (gap_of sort_ts l) <> Panic.
Proof.
  intros Hok Hg. destruct l as [|x l]; [discriminate|].
  destruct (gap_of_nonempty (x :: l)) as (lo & hi & Hlo & Hhi & _ & ->); [discriminate|].
  rewrite span_ok; [discriminate | apply Hg, Hlo | apply (ok_span _ Hok); assumption].
Qed.

Theorem validate_no_panic : forall number l s add,
  round_ok l -> guarded l -> all_encodable l ->
  s_round s = number -> s_hash s <> 0 ->
  snd (validate_snapshot sort_ts number l s add) <> Panic.
Proof.
  intros number l s add Hok Hg He Hr Hh. unfold validate_snapshot.
  replace (negb (s_round s =? number) || (s_hash s =? 0)) with false by lia.
  pose proof (scan_no_panic s l He) as Hsc.
  destruct (scan s l) as [[]| |]; [|discriminate|contradiction].
  pose proof (gap_of_no_panic l Hok Hg) as Hgp.
  destruct (gap_of sort_ts l) as [sl [[start end_]| |]]; [|discriminate|contradiction].
  destruct (gap_rejects s start end_); [discriminate|]. destruct add; discriminate.
Qed.

Lemma validate_preserves_wf number l s add l' r :
  guarded l -> all_encodable l -> wf_cand number s ->
  validate_snapshot sort_ts number l s add = (l', r) -> guarded l' /\ all_encodable l'.
Proof.
  intros Hg He (_ & _ & W3 & W4) Hv.
  assert (Hin : forall a, In a l' -> In a l \/ a = s).
  { destruct (validate_perm _ _ _ _ _ _ Hv) as [(_ & _ & sl & HP & ->)|[_ HP]]; intros a Ha.
    - apply in_app_or in Ha as [Ha|[<-|[]]]; [left; exact (Permutation_in _ HP Ha) | right; reflexivity].
    - left. exact (Permutation_in _ HP Ha). }
  unfold all_encodable in *. rewrite Forall_forall in *. split; intros a [Ha| ->]%Hin; auto.
Qed.

Theorem run_wf : forall number cands, Forall (wf_cand number) cands ->
  let l := run sort_ts number cands in round_ok l /\ guarded l /\ all_encodable l.
Proof.
  intros number cands HF. unfold run. apply (fold_left_inv (fun l => round_ok l /\ guarded l /\ all_encodable l)).
  - intros l s Hs%(proj1 (Forall_forall _ _) HF) (Hok & Hg & He). unfold accept.
    destruct (validate_snapshot sort_ts number l s true) as [l' r] eqn:Hv.
    split; [|exact (validate_preserves_wf _ _ _ _ _ _ Hg He Hs Hv)].
    apply (validate_preserves _ _ _ _ _ _ Hok) in Hv; [exact Hv|]. destruct Hs as (_ & _ & _ & W). lia.
  - split; [exact round_ok_nil|]. split; [intros a [] | constructor].
Qed.

Section Close.
Variable H : hin -> N.
Variable sort : list snap -> list snap.
Hypothesis sort_ok : sort_spec snap_lt sort.

Lemma as_final_bounds node number l : l <> [] ->
  exists lo hi, In lo l /\ In hi l /\
    (forall s, In s l -> s_ts lo <= s_ts s <= s_ts hi) /\
    as_final H sort node number l =
      if add64 (s_ts lo) round_gap <=? s_ts hi then Panic
      else Ok (Some (s_ts lo, s_ts hi, fold_keys H (H (HSeed node number)) (map skey (sort l)))).
Proof.
  intros Hne. destruct (sort_bounds s_ts snap_lt snap_lt_ts sort sort_ok l Hne) as (s0 & sl & E & Hlo & Hhi & Hb).
  exists s0, (last (s0 :: sl) s0). do 3 (split; [assumption|]).
  unfold as_final. destruct l; [contradiction|]. rewrite (common_spec H sort sort_ok), E.
  unfold round_hash_spec. cbn [map]. change (skey s0 :: map skey sl) with (map skey (s0 :: sl)).
  rewrite (last_map skey (s0 :: sl) s0). cbn [skey fst]. destruct (_ <=? _); reflexivity.
Qed.

Theorem close_total : forall node number l, round_ok l -> guarded l ->
  as_final H sort node number l <> Panic.
Proof.
  intros node number l Hok Hg. destruct l as [|x l]; [discriminate|].
  destruct (as_final_bounds node number (x :: l)) as (lo & hi & Hlo & Hhi & _ & ->); [discriminate|].
  rewrite span_ok; [discriminate | apply Hg, Hlo | apply (ok_span _ Hok); assumption].
Qed.
End Close.
End WithSort.

Lemma ts_lt_asym a b : ts_lt a b = true -> ts_lt b a = false.
Proof. unfold ts_lt. lia. Qed.
Lemma ts_lt_negtrans a b c : ts_lt b a = false -> ts_lt c b = false -> ts_lt c a = false.
Proof. unfold ts_lt. lia. Qed.
Lemma isort_ts_spec : sort_spec ts_lt isort_ts.
Proof. apply isort_spec; [exact ts_lt_asym | exact ts_lt_negtrans]. Qed.
