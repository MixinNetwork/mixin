(* Lemmas about Model/Aggregate.v: signer collection, Schnorr verification
   equation, completeness and binding of aggregate signatures. *)
From Coq Require Import List ZArith NArith Bool Lia Znumtheory.
Require Import Mixin.Base.Res Mixin.Model.Group Mixin.Model.Aggregate Mixin.Proofs.Group Mixin.Proofs.Res Mixin.Proofs.Lists.
Import ListNotations.
Open Scope Z_scope.

Definition key_at (keys : list Z) (i : Z) : Z := nth (Z.to_nat i) keys 0.

Fixpoint okb (l : Z) (keys : list Z) (prev : Z) (s : list Z) : bool :=
  match s with
  | [] => true
  | i :: r => (prev <? i) && (i <? Z.of_nat (length keys)) && point_ok l (key_at keys i) && okb l keys i r
  end.

Definition sel_of (keys : list Z) (s : list Z) : list (Z * Z) := map (fun i => (i, key_at keys i)) s.

Lemma collect_loop_eq : forall l keys s prev, -1 <= prev ->
  collect_loop l keys prev s = if okb l keys prev s then Ok (sel_of keys s) else Err.
Proof.
  intros l keys s. induction s as [|i r IH]; intros prev Hp; [reflexivity|].
  cbn [collect_loop okb sel_of map]. rewrite (Z.leb_antisym prev i), (Z.leb_antisym i (Z.of_nat (length keys))).
  destruct (prev <? i) eqn:E1; cbn [negb andb]; [|reflexivity].
  destruct (i <? Z.of_nat (length keys)) eqn:E2; cbn [negb andb]; [|reflexivity].
  rewrite (nth_error_nth' keys 0) by lia. fold (key_at keys i).
  destruct (point_ok l (key_at keys i)); cbn [negb andb]; [|reflexivity].
  rewrite IH by lia. fold (sel_of keys r). destruct (okb l keys i r); reflexivity.
Qed.

Definition signers_okb (l : Z) (keys s : list Z) : bool :=
  match s with [] => false | _ => okb l keys (-1) s end.

Lemma collect_signers_eq : forall l keys s,
  collect_signers l keys s = if signers_okb l keys s then Ok (sel_of keys s) else Err.
Proof.
  intros l keys s. unfold collect_signers, signers_okb. destruct s as [|i r]; [reflexivity|].
  apply collect_loop_eq. lia.
Qed.

Fixpoint increasing (prev : Z) (s : list Z) : Prop :=
  match s with [] => True | i :: r => prev < i /\ increasing i r end.

Definition signers_ok (l : Z) (keys s : list Z) : Prop :=
  s <> [] /\ increasing (-1) s /\
  Forall (fun i => i < Z.of_nat (length keys) /\ point_ok l (key_at keys i) = true) s.

Lemma increasing_above : forall s prev, increasing prev s -> Forall (fun i => prev < i) s.
Proof.
  induction s as [|i r IH]; intros prev Hi; constructor; [apply Hi|].
  eapply Forall_impl; [|apply IH, Hi]. cbn. destruct Hi. lia.
Qed.

Lemma okb_iff : forall l keys s prev,
  okb l keys prev s = true <->
  increasing prev s /\ Forall (fun i => i < Z.of_nat (length keys) /\ point_ok l (key_at keys i) = true) s.
Proof.
  intros l keys s. induction s as [|i r IH]; intros prev; cbn [okb increasing].
  - split; [intros _; split; [exact I | constructor] | reflexivity].
  - rewrite !andb_true_iff, !Z.ltb_lt, IH, Forall_cons_iff. tauto.
Qed.

Lemma signers_okb_iff : forall l keys s, signers_okb l keys s = true <-> signers_ok l keys s.
Proof.
  intros l keys s. unfold signers_okb, signers_ok. destruct s as [|i r].
  - split; [discriminate | intros (H & _); congruence].
  - rewrite okb_iff. split; [intros (H1 & H2); repeat split; [discriminate | apply H1 | apply H1 | exact H2] | tauto].
Qed.

Lemma verify_with_challenge_iff : forall l k r s c,
  verify_with_challenge l k r s c = true <->
  0 < k < l /\ 0 < r < l /\ 0 <= s < l /\ cg l s (r + c * k).
Proof.
  intros. unfold verify_with_challenge.
  rewrite !andb_true_iff, !point_ok_iff, scalar_ok_iff, Z.eqb_eq, cg_iff. tauto.
Qed.

Section Sign.
Variable l : Z.
Variable enc : Z -> N.
Variable H : list N -> Z.

Definition nonce_of (seed tr : list N) (a : Z) (m : N) (ik : Z * Z) : Z * Z :=
  (snd ik, H (nonce_input enc (snd ik) seed tr a (fst ik) m)).

(* [nonce_of] can take the private scalar from [sel]: the loop has checked each
   private scalar against the selected key, which the model identifies with its
   discrete log.  The bound 65535 on a signer index is crypto/aggregation.go's
   `signer > 0xFFFF`. *)
Lemma sign_loop_ok : forall seed tr a m sel privs yz,
  sign_loop l enc H seed tr a m sel privs = Ok yz -> yz = map (nonce_of seed tr a m) sel.
Proof.
  intros seed tr a m sel. induction sel as [|[i k] sel IH]; intros privs yz Hs; cbn [sign_loop] in Hs.
  - injection Hs as <-. reflexivity.
  - destruct privs as [|y privs]; [discriminate|].
    destruct (65535 <? i); [discriminate|].
    destruct (negb (scalar_ok l y)); [discriminate|].
    destruct (Z.eqb_spec y k) as [->|]; [|discriminate]. cbn [negb] in Hs.
    apply bind_ok in Hs. destruct Hs as (tl & Et & [= <-]). rewrite (IH _ _ Et). reflexivity.
Qed.

Lemma sign_loop_complete : forall seed tr a m sel,
  Forall (fun ik => fst ik <= 65535 /\ 0 <= snd ik < l) sel ->
  sign_loop l enc H seed tr a m sel (map snd sel) = Ok (map (nonce_of seed tr a m) sel).
Proof.
  intros seed tr a m sel HF. induction HF as [|[i k] sel (H1 & H2) _ IH]; [reflexivity|].
  cbn [fst snd] in *. cbn [sign_loop map snd].
  rewrite (proj2 (Z.ltb_ge 65535 i)), (proj2 (scalar_ok_iff l k)), Z.eqb_refl, IH by lia. reflexivity.
Qed.

Definition chal (r a : Z) (m : N) : Z := H (challenge_input enc r a m).

Lemma sign_sound : forall privs keys signers seed m r s, 0 < l ->
  aggregate_sign l enc H privs keys signers seed m = Ok (r, s) ->
  signers_ok l keys signers /\
  0 <= r < l /\ 0 <= s < l /\
  let a := weighted_key_of l enc H (sel_of keys signers) in
  cg l s (r + chal r a m * a).
Proof.
  intros privs keys signers seed m r s Hl Hs. unfold aggregate_sign in Hs.
  destruct (negb _); [discriminate|]. destruct (_ <? _)%nat; [discriminate|].
  unfold aggregate_weighted_public_key in Hs. rewrite collect_signers_eq in Hs.
  destruct (signers_okb l keys signers) eqn:Eb; [|discriminate].
  cbn [bind] in Hs. set (sel := sel_of keys signers) in *.
  set (a := weighted_key_of l enc H sel) in *. set (tr := transcript enc sel) in *.
  apply bind_ok in Hs. destruct Hs as (yz & El & [= <- <-]). apply sign_loop_ok in El. subst yz.
  split; [apply signers_okb_iff; exact Eb|].
  split; [apply fsum_range; exact Hl|]. split; [apply fsum_range; exact Hl|].
  cbv zeta. unfold chal. set (x := H (challenge_input enc _ a m)).
  assert (Ha : cg l a (zsum (map (fun ik => coef enc H tr ik * snd ik) sel))).
  { unfold a, weighted_key_of. fold tr. rewrite fsum_cg. apply zsum_map_cg. intros; apply fmul_cg. }
  (* each share is x * (coefficient * key) + nonce *)
  rewrite combine_map_self, !fsum_cg, !map_map.
  rewrite (zsum_map_cg l _ (fun ik => x * (coef enc H tr ik * snd ik) + snd (nonce_of seed tr a m ik))).
  2:{ intros [i k] _. cbn [nonce_of fst snd]. rewrite cg_mod, fmul_cg. reflexivity. }
  rewrite zsum_map_lin, <- Ha. cg_ring.
Qed.

Lemma verify_iff : forall r s keys signers m,
  aggregate_verify l enc H r s keys signers m = Ok tt <->
  signers_ok l keys signers /\
  let a := weighted_key_of l enc H (sel_of keys signers) in
  0 < a < l /\ 0 < r < l /\ 0 <= s < l /\ cg l s (r + chal r a m * a).
Proof.
  intros r s keys signers m. cbv zeta. unfold aggregate_verify, aggregate_weighted_public_key.
  rewrite collect_signers_eq, <- signers_okb_iff, <- verify_with_challenge_iff.
  destruct (signers_okb l keys signers); cbn [bind fst]; [|split; [discriminate | intros [E _]; discriminate E]].
  unfold schnorr_verify, chal. destruct (verify_with_challenge l _ r s _); split;
    [split; reflexivity | reflexivity | discriminate | intros [_ E]; discriminate E].
Qed.

Lemma sign_complete : forall keys signers seed m, 0 < l ->
  signers_ok l keys signers -> Forall (fun i => i <= 65535) signers -> (32 <= length seed)%nat ->
  exists r s,
    aggregate_sign l enc H (map (key_at keys) signers) keys signers seed m = Ok (r, s) /\
    (point_ok l (weighted_key_of l enc H (sel_of keys signers)) = true -> point_ok l r = true ->
     aggregate_verify l enc H r s keys signers m = Ok tt).
Proof.
  intros keys signers seed m Hl Hok H16 Hseed.
  assert (Hex : exists r s, aggregate_sign l enc H (map (key_at keys) signers) keys signers seed m = Ok (r, s)).
  { unfold aggregate_sign, aggregate_weighted_public_key.
    rewrite map_length, Nat.eqb_refl, (proj2 (Nat.ltb_ge _ _) Hseed), collect_signers_eq, (proj2 (signers_okb_iff _ _ _) Hok).
    cbn [negb bind]. replace (map (key_at keys) signers) with (map snd (sel_of keys signers))
      by (unfold sel_of; rewrite map_map; reflexivity).
    rewrite sign_loop_complete; [cbn [bind]; eauto|].
    destruct Hok as (_ & _ & HF). unfold sel_of. rewrite Forall_map. rewrite Forall_forall in *.
    intros i Hi. cbn [fst snd]. destruct (HF i Hi) as [_ Hp]. apply point_ok_iff in Hp. specialize (H16 i Hi). lia. }
  destruct Hex as (r & s & Hs). exists r, s. split; [exact Hs|].
  intros Ha Hr. destruct (sign_sound _ _ _ _ _ _ _ Hl Hs) as (_ & _ & Hsr & Heq).
  apply verify_iff. apply point_ok_iff in Ha, Hr. cbv zeta in *. tauto.
Qed.

Lemma binding : forall r s keys signers m keys' signers' m', 0 < l ->
  aggregate_verify l enc H r s keys signers m = Ok tt ->
  aggregate_verify l enc H r s keys' signers' m' = Ok tt ->
  let a := weighted_key_of l enc H (sel_of keys signers) in
  let a' := weighted_key_of l enc H (sel_of keys' signers') in
  0 < a' < l /\ cg l (chal r a' m' * a') (chal r a m * a).
Proof.
  intros r s keys signers m keys' signers' m' Hl H1 H2. cbv zeta.
  apply verify_iff in H1, H2. destruct H1 as (_ & _ & _ & _ & E1), H2 as (_ & Ha' & _ & _ & E2).
  split; [exact Ha'|]. apply (cg_add_cancel_l l r). rewrite <- E1, <- E2. reflexivity.
Qed.

(* so, the order being prime, the hash has to hit one value fixed by the first
   context for the signature to be accepted in a second one *)
Lemma binding_challenge : forall r s keys signers m keys' signers' m', prime l ->
  aggregate_verify l enc H r s keys signers m = Ok tt ->
  aggregate_verify l enc H r s keys' signers' m' = Ok tt ->
  let a := weighted_key_of l enc H (sel_of keys signers) in
  let a' := weighted_key_of l enc H (sel_of keys' signers') in
  exists w, (a' * w) mod l = 1 mod l /\
            chal r a' m' mod l = (chal r a m * a * w) mod l.
Proof.
  intros r s keys signers m keys' signers' m' Hp H1 H2. cbv zeta.
  assert (Hl : 0 < l) by (destruct Hp; lia).
  destruct (binding _ _ _ _ _ _ _ _ Hl H1 H2) as (Ha' & E). cbv zeta in E.
  set (a' := weighted_key_of l enc H (sel_of keys' signers')) in *.
  destruct (inv_exists l a' Hp) as [w Hw]; [rewrite Z.mod_small; lia|]. exists w.
  split; apply cg_iff; [exact Hw|]. apply (cg_solve l _ w _ _ Hw). rewrite Z.mul_comm. exact E.
Qed.

End Sign.

Lemma be_bytes_length : forall n v, length (be_bytes n v) = n.
Proof.
  induction n as [|n IH]; intros v; cbn [be_bytes]; [reflexivity|].
  rewrite app_length, IH. cbn. lia.
Qed.

Lemma be_bytes_inj : forall n v w,
  (v < 2 ^ (8 * N.of_nat n))%N -> (w < 2 ^ (8 * N.of_nat n))%N -> be_bytes n v = be_bytes n w -> v = w.
Proof.
  induction n as [|n IH]; intros v w Hv Hw He.
  - cbn in Hv, Hw. lia.
  - cbn [be_bytes] in He. apply app_inj_tail in He. destruct He as [E1 E2].
    replace (8 * N.of_nat (S n))%N with (8 + 8 * N.of_nat n)%N in Hv, Hw by lia.
    rewrite N.pow_add_r in Hv, Hw.
    apply IH in E1; try (rewrite N.shiftr_div_pow2; apply N.div_lt_upper_bound; [discriminate | assumption]).
    change 255%N with (N.ones 8) in E2. rewrite !N.land_ones in E2. rewrite !N.shiftr_div_pow2 in E1.
    rewrite (N.div_mod' v (2 ^ 8)), (N.div_mod' w (2 ^ 8)), E1, E2. reflexivity.
Qed.

Lemma u32be_length : forall i, length (u32be i) = 4%nat.
Proof. intros. apply be_bytes_length. Qed.

Lemma bytes32_length : forall v, length (bytes32 v) = 32%nat.
Proof. intros. apply be_bytes_length. Qed.

Lemma u32be_inj : forall i j, 0 <= i < 2 ^ 32 -> 0 <= j < 2 ^ 32 -> u32be i = u32be j -> i = j.
Proof.
  intros i j Hi Hj He. unfold u32be in He. rewrite !Z.mod_small in He by assumption.
  apply be_bytes_inj in He; [apply Z2N.inj; lia | |];
    change (2 ^ (8 * N.of_nat 4))%N with (Z.to_N (2 ^ 32)); apply Z2N.inj_lt; lia.
Qed.

Definition n256 : N := (2 ^ 256)%N.

Lemma bytes32_inj : forall v w, (v < n256)%N -> (w < n256)%N -> bytes32 v = bytes32 w -> v = w.
Proof. intros v w Hv Hw He. apply be_bytes_inj in He; assumption. Qed.

Section Transcripts.
Variable l : Z.
Variable enc : Z -> N.
Hypothesis enc_inj : forall a b, 0 <= a < l -> 0 <= b < l -> enc a = enc b -> a = b.
Hypothesis enc_range : forall a, (enc a < n256)%N.

Definition entry_ok (ik : Z * Z) : Prop := 0 <= fst ik < 2 ^ 32 /\ 0 <= snd ik < l.

Definition entry_bytes (ik : Z * Z) : list N := u32be (fst ik) ++ bytes32 (enc (snd ik)).

Lemma entry_bytes_length : forall ik, length (entry_bytes ik) = 36%nat.
Proof. intros. unfold entry_bytes. rewrite app_length, u32be_length, bytes32_length. reflexivity. Qed.

Lemma entry_bytes_inj : forall ik ik', entry_ok ik -> entry_ok ik' -> entry_bytes ik = entry_bytes ik' -> ik = ik'.
Proof.
  intros [i k] [i' k'] [Hi Hk] [Hi' Hk'] He. unfold entry_bytes in He. cbn [fst snd] in *.
  apply app_inj_len in He; [|rewrite !u32be_length; reflexivity]. destruct He as [E1 E2].
  apply u32be_inj in E1; try assumption. apply bytes32_inj in E2; try apply enc_range.
  apply enc_inj in E2; try assumption. subst. reflexivity.
Qed.

Lemma sel_bytes_inj : forall sel sel', Forall entry_ok sel -> Forall entry_ok sel' ->
  flat_map entry_bytes sel = flat_map entry_bytes sel' -> sel = sel'.
Proof.
  induction sel as [|ik sel IH]; intros [|ik' sel'] HF HF' He; cbn [flat_map] in He; [reflexivity | | |].
  1,2: apply (f_equal (@length N)) in He; rewrite app_length, entry_bytes_length in He; discriminate He.
  apply app_inj_len in He; [|rewrite !entry_bytes_length; reflexivity].
  destruct He as [E1 E2]. inversion HF; inversion HF'; subst.
  apply entry_bytes_inj in E1; try assumption. subst ik'. f_equal. apply IH; assumption.
Qed.

Lemma transcript_inj : forall sel sel', Forall entry_ok sel -> Forall entry_ok sel' ->
  transcript enc sel = transcript enc sel' -> sel = sel'.
Proof.
  intros sel sel' HF HF' He. unfold transcript in He.
  apply app_inj_len in He; [|rewrite !u32be_length; reflexivity]. destruct He as [_ E].
  apply sel_bytes_inj; assumption.
Qed.

Lemma coef_input_inj : forall tr tr' ik ik', entry_ok ik -> entry_ok ik' ->
  coef_input enc tr ik = coef_input enc tr' ik' -> tr = tr' /\ ik = ik'.
Proof.
  intros tr tr' ik ik' Hk Hk' He. unfold coef_input in He. apply app_inv_head in He.
  fold (entry_bytes ik) in He. fold (entry_bytes ik') in He.
  apply app_inj_len in He.
  - destruct He as [E1 E2]. split; [exact E1 | apply entry_bytes_inj; assumption].
  - apply (f_equal (@length N)) in He. rewrite !app_length, !entry_bytes_length in He. lia.
Qed.

Lemma challenge_input_inj : forall r a m r' a' m', (m < n256)%N -> (m' < n256)%N ->
  challenge_input enc r a m = challenge_input enc r' a' m' -> enc r = enc r' /\ enc a = enc a' /\ m = m'.
Proof.
  intros r a m r' a' m' Hm Hm' He. unfold challenge_input in He.
  apply app_inj_len in He; [|rewrite !bytes32_length; reflexivity]. destruct He as [E1 He].
  apply app_inj_len in He; [|rewrite !bytes32_length; reflexivity]. destruct He as [E2 E3].
  apply bytes32_inj in E1; try apply enc_range. apply bytes32_inj in E2; try apply enc_range.
  apply bytes32_inj in E3; try assumption. tauto.
Qed.

Lemma sel_entries_ok : forall keys signers, signers_ok l keys signers ->
  Z.of_nat (length keys) <= 2 ^ 32 -> Forall entry_ok (sel_of keys signers).
Proof.
  intros keys signers (_ & Hinc & HF) Hlen. unfold sel_of. rewrite Forall_map.
  apply increasing_above in Hinc. rewrite Forall_forall in *. intros i Hi.
  destruct (HF i Hi) as [Hlt Hp]. apply point_ok_iff in Hp. specialize (Hinc i Hi).
  unfold entry_ok. cbn [fst snd]. lia.
Qed.

End Transcripts.
