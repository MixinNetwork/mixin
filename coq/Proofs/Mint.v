(* Model/Mint.v (C25).  The schedule is read off the pool after whole years, which only
   falls; the cumulative bound telescopes over the years; the distribution by works is the
   list of shares of the remapped works; the output construction has a guarded normal form. *)
From Coq Require Import List ZArith NArith Bool Lia ZifyBool.
Require Import Mixin.Base.Res Mixin.Gen.Consts Mixin.Model.Fixed Mixin.Model.Mint.
Require Import Mixin.Proofs.Res Mixin.Proofs.Fixed.
Import ListNotations.
Open Scope Z_scope.

(* in this file [lia] also knows floor division and remainder *)
Local Ltac Zify.zify_post_hook ::= Z.to_euclidean_division_equations.

Lemma i_add_not_err x y : i_add x y <> Err.
Proof. rewrite i_add_spec. destruct (_ || _); discriminate. Qed.
Lemma i_sub_not_err x y : i_sub x y <> Err.
Proof. rewrite i_sub_spec. destruct (_ || _); discriminate. Qed.
Lemma i_mul_not_err x y : i_mul x y <> Err.
Proof. unfold i_mul. destruct (_ || _); discriminate. Qed.
Lemma i_div_not_err x y : i_div x y <> Err.
Proof. unfold i_div. destruct (_ || _); discriminate. Qed.
Lemma product_not_err r x : product r x <> Err.
Proof. unfold product. destruct (x <? 0); [discriminate|]. destruct (snd r =? 0); discriminate. Qed.

Lemma year_days_pos : 0 < year_days. Proof. reflexivity. Qed.
Lemma mint_pool_nonneg : 0 <= mint_pool. Proof. discriminate. Qed.

(* The yearly percentage is one tenth.  The [change]s below put the stored pair
   (Consts.MintYearPercentNum, Consts.MintYearPercentDen) in the form k * 10^9; they fail, and
   so does this proof, if the constants are regenerated with another percentage.  Likewise
   [change year_days with 365] further down. *)
Lemma product_year p : 0 <= p -> product year_percent p = Ok (p / 10).
Proof.
  intros Hp. rewrite product_ok by (assumption || discriminate). f_equal.
  change (fst year_percent) with (1 * 1000000000). change (snd year_percent) with (10 * 1000000000).
  rewrite Z.mul_assoc, Z.div_mul_cancel_r, Z.mul_1_r by discriminate. reflexivity.
Qed.

(* the daily amount of a year that begins with pool [p] *)
Definition day_of (p : Z) : Z := p / 10 / year_days.

Lemma day_of_bounds p : 0 <= p -> 0 <= day_of p /\ year_days * day_of p <= p / 10.
Proof. unfold day_of. change year_days with 365. lia. Qed.

Lemma day_of_mono p q : 0 <= p <= q -> day_of p <= day_of q.
Proof. unfold day_of. change year_days with 365. lia. Qed.

Lemma year_step_spec p : 0 <= p ->
  year_step p = if p / 10 <=? 0 then Panic else Ok (p - p / 10).
Proof.
  intros Hp. unfold year_step. rewrite (product_year p Hp). cbn [bind]. rewrite i_sub_spec.
  replace ((p <? 0) || (p / 10 <=? 0) || (p <? p / 10)) with (p / 10 <=? 0) by lia.
  reflexivity.
Qed.

Lemma pool_after_cases y :
  match pool_after y with Ok p => 0 <= p <= mint_pool | Panic => True | Err => False end.
Proof.
  induction y as [|y IH]; cbn [pool_after]; [pose proof mint_pool_nonneg; lia|].
  destruct (pool_after y) as [q| |]; cbn [bind]; [|assumption|exact I].
  rewrite year_step_spec by lia. destruct (q / 10 <=? 0); [exact I|lia].
Qed.

Lemma pool_after_range y p : pool_after y = Ok p -> 0 <= p <= mint_pool.
Proof. intros H. pose proof (pool_after_cases y) as C. rewrite H in C. exact C. Qed.

Lemma pool_after_not_err y : pool_after y <> Err.
Proof. intros H. pose proof (pool_after_cases y) as C. rewrite H in C. exact C. Qed.

Lemma pool_after_le y1 y2 p2 : pool_after y2 = Ok p2 -> (y1 <= y2)%nat ->
  exists p1, pool_after y1 = Ok p1 /\ p2 <= p1.
Proof.
  intros H Hle. revert p2 H.
  induction Hle as [|y2 Hle IH]; intros p2 H; [exists p2; split; [assumption|lia]|].
  cbn [pool_after] in H. apply bind_ok in H as (q & Hq & Hs).
  pose proof (pool_after_range _ _ Hq). rewrite year_step_spec in Hs by lia.
  destruct (q / 10 <=? 0); [discriminate|]. injection Hs as <-.
  destruct (IH q Hq) as (p1 & H1 & Hle1).
  exists p1. split; [assumption|lia].
Qed.

Lemma pool_after_panic_mono y1 y2 :
  pool_after y1 = Panic -> (y1 <= y2)%nat -> pool_after y2 = Panic.
Proof.
  intros H Hle. induction Hle as [|y2 Hle IH]; [assumption|].
  cbn [pool_after]. rewrite IH. reflexivity.
Qed.

Lemma batch_size_of_year_spec y :
  batch_size_of_year y = if 10000 <? y then Panic else rmap day_of (pool_after (Z.to_nat y)).
Proof.
  unfold batch_size_of_year. destruct (10000 <? y); [reflexivity|].
  destruct (pool_after (Z.to_nat y)) as [p| |] eqn:E; cbn [bind rmap]; try reflexivity.
  pose proof (pool_after_range _ _ E). rewrite product_year by lia. cbn [bind].
  apply i_div_ok; [lia|apply year_days_pos].
Qed.

Lemma batch_size_of_year_nonneg y a : batch_size_of_year y = Ok a -> 0 <= a.
Proof.
  rewrite batch_size_of_year_spec. destruct (10000 <? y); [discriminate|].
  intros (p & Hp & ->)%rmap_ok. apply day_of_bounds, (pool_after_range _ _ Hp).
Qed.

Lemma batch_size_of_year_le y0 a0 y : batch_size_of_year y0 = Ok a0 -> y <= y0 ->
  exists a, batch_size_of_year y = Ok a /\ a0 <= a.
Proof.
  rewrite !batch_size_of_year_spec. intros H Hy.
  destruct (10000 <? y0) eqn:E; [discriminate|]. replace (10000 <? y) with false by lia.
  apply rmap_ok in H as (p0 & H0 & ->).
  destruct (pool_after_le (Z.to_nat y) _ _ H0) as (p & Hp & Hle); [lia|].
  rewrite Hp. exists (day_of p). split; [reflexivity|].
  apply day_of_mono. pose proof (pool_after_range _ _ H0). lia.
Qed.

Lemma batch_size_of_year_panic_mono y0 y : batch_size_of_year y0 = Panic -> y0 <= y ->
  batch_size_of_year y = Panic.
Proof.
  rewrite !batch_size_of_year_spec. intros H Hy.
  destruct (10000 <? y) eqn:E; [reflexivity|]. replace (10000 <? y0) with false in H by lia.
  destruct (pool_after (Z.to_nat y0)) eqn:E0; try discriminate H.
  rewrite (pool_after_panic_mono _ (Z.to_nat y) E0) by lia. reflexivity.
Qed.

Lemma mint_batch_size_le b0 a0 b : mint_batch_size b0 = Ok a0 -> b <= b0 ->
  exists a, mint_batch_size b = Ok a /\ a0 <= a.
Proof.
  intros H Hb. apply (batch_size_of_year_le _ _ _ H), Z.div_le_mono; [reflexivity|assumption].
Qed.

Lemma mint_batch_size_panic_mono b0 b : mint_batch_size b0 = Panic -> b0 <= b ->
  mint_batch_size b = Panic.
Proof.
  intros H Hb. apply (batch_size_of_year_panic_mono _ _ H), Z.div_le_mono; [reflexivity|assumption].
Qed.

Lemma mint_batch_size_between b0 b1 a b : mint_batch_size b0 = Ok a -> mint_batch_size b1 = Ok a ->
  b0 <= b <= b1 -> mint_batch_size b = Ok a.
Proof.
  intros H0 H1 [Hlo Hhi]. destruct (mint_batch_size_le _ _ b H1 Hhi) as (a' & Ha & Hge).
  destruct (mint_batch_size_le _ _ b0 Ha Hlo) as (a0 & Ha0 & Hle).
  rewrite H0 in Ha0. injection Ha0 as <-. rewrite Ha. f_equal. lia.
Qed.

(* [k] more years of the loop from pool [p], in the form of [year_step_spec] *)
Fixpoint pools (k : nat) (p : Z) : res Z :=
  match k with O => Ok p | S k' => if p / 10 <=? 0 then Panic else pools k' (p - p / 10) end.

Lemma pool_after_pools k : forall y p, pool_after y = Ok p -> pool_after (k + y) = pools k p.
Proof.
  induction k as [|k IH]; intros y p H; [exact H|].
  rewrite Nat.add_succ_comm. cbn [pools].
  assert (S : pool_after (S y) = if p / 10 <=? 0 then Panic else Ok (p - p / 10)).
  { cbn [pool_after]. rewrite H. apply year_step_spec, (pool_after_range _ _ H). }
  destruct (p / 10 <=? 0); [|exact (IH _ _ S)].
  apply (pool_after_panic_mono _ _ S). lia.
Qed.

(* Last batch on which mintBatchSize returns: 285 * 365 - 1, the last batch of year 284.
   The pool after 284 years is 9, and 9 / 10 = 0 makes pool.Sub(0) panic in year 285. *)
Definition last_total_batch : Z := 104024.
(* KernelNetworkLegacyEnding + 1: up to batch 1706 [build_outputs] builds nothing *)
Definition first_batch : Z := 1707.
(* Positivity guard: 2800 = 2 * 28 * 50.  The kernel nodes share amount / 10 * 5, and
   [shares_positive] asks for 28 per node, with at most max_nodes = 50 nodes.
   Horizon of the property: 147 * 365 - 1, the last batch of year 146, the last year whose
   daily amount (2858) is at least the guard; year 147 has 2572. *)
Definition horizon : Z := 53654.
Definition guard_a0 : Z := 2800.
(* From batch 222 * 365 on the amount is zero (and mintMultiBatchesSize panics on it):
   the pool after 222 years is 3478, and 3478 / 10 / 365 = 0. *)
Definition first_zero_batch : Z := 81030.

(* The pool after the years in which the batches above lie and after the years
   that follow them, each continued from the one before. *)
Lemma pool_146 : pool_after 146 = Ok 10432216.
Proof. apply (eq_trans (pool_after_pools 146 0 _ eq_refl)). vm_compute. reflexivity. Qed.
Lemma pool_147 : pool_after 147 = Ok 9388995.
Proof. exact (pool_after_pools 1 146 _ pool_146). Qed.
Lemma pool_221 : pool_after 221 = Ok 3864.
Proof. apply (eq_trans (pool_after_pools 74 147 _ pool_147)). vm_compute. reflexivity. Qed.
Lemma pool_222 : pool_after 222 = Ok 3478.
Proof. exact (pool_after_pools 1 221 _ pool_221). Qed.
Lemma pool_284 : pool_after 284 = Ok 9.
Proof. apply (eq_trans (pool_after_pools 62 222 _ pool_222)). vm_compute. reflexivity. Qed.
Lemma pool_285 : pool_after 285 = Panic.
Proof. exact (pool_after_pools 1 284 _ pool_284). Qed.

Lemma mint_batch_size_year b y r : b / year_days = Z.of_nat y ->
  (Z.of_nat y <=? 10000) = true -> pool_after y = r -> mint_batch_size b = rmap day_of r.
Proof.
  intros E Hy <-. unfold mint_batch_size. rewrite batch_size_of_year_spec, E, Nat2Z.id. clear E.
  replace (10000 <? Z.of_nat y) with false by lia. reflexivity.
Qed.

Lemma size_at_horizon : mint_batch_size horizon = Ok 2858.
Proof. exact (mint_batch_size_year horizon 146 _ eq_refl eq_refl pool_146). Qed.
Lemma size_after_horizon : mint_batch_size (horizon + 1) = Ok 2572.
Proof. exact (mint_batch_size_year (horizon + 1) 147 _ eq_refl eq_refl pool_147). Qed.
Lemma size_at_zero : mint_batch_size first_zero_batch = Ok 0.
Proof. exact (mint_batch_size_year first_zero_batch 222 _ eq_refl eq_refl pool_222). Qed.
Lemma size_at_last : mint_batch_size last_total_batch = Ok 0.
Proof. exact (mint_batch_size_year last_total_batch 284 _ eq_refl eq_refl pool_284). Qed.
Lemma size_after_last : mint_batch_size (last_total_batch + 1) = Panic.
Proof. exact (mint_batch_size_year (last_total_batch + 1) 285 _ eq_refl eq_refl pool_285). Qed.

(* the amount of a batch as a number: 0 where mintBatchSize panics *)
Definition size_z (b : Z) : Z := match mint_batch_size b with Ok a => a | _ => 0 end.

Fixpoint sum_sizes (n : nat) (i : Z) : Z :=
  match n with O => 0 | S n' => size_z i + sum_sizes n' (i + 1) end.

Lemma size_z_nonneg b : 0 <= size_z b.
Proof.
  unfold size_z.
  destruct (mint_batch_size b) eqn:E; [exact (batch_size_of_year_nonneg _ _ E)|lia|lia].
Qed.

Lemma sum_sizes_nonneg n : forall i, 0 <= sum_sizes n i.
Proof.
  induction n as [|n IH]; intros i; cbn [sum_sizes]; [lia|].
  pose proof (size_z_nonneg i). specialize (IH (i + 1)). lia.
Qed.

Lemma multi_from_spec n : forall i acc s, 0 <= acc ->
  multi_from n i acc = Ok s <->
  s = acc + sum_sizes n i /\
  forall j, i <= j < i + Z.of_nat n -> exists a, mint_batch_size j = Ok a /\ 0 < a.
Proof.
  induction n as [|n IH]; intros i acc s Hacc; cbn [multi_from sum_sizes].
  - split; [intros [= <-]; split; [lia|intros; lia]|intros [-> _]; f_equal; lia].
  - unfold size_z. destruct (mint_batch_size i) as [a0| |] eqn:Ea; cbn [bind].
    2,3: split; [discriminate|]; intros [_ H]; destruct (H i) as (a & Ha & _); [lia|congruence].
    destruct (Z.ltb_spec 0 a0) as [Hpos|Hle].
    + rewrite i_add_ok by lia. cbn [bind]. rewrite IH by lia.
      split; intros [-> H]; (split; [lia|]); intros j Hj; [|apply H; lia].
      destruct (Z.eq_dec j i) as [->|]; [eauto|apply H; lia].
    + (* amount.Add of an amount that is not positive panics *)
      split; [intros (? & (_ & ? & _)%i_add_inv & _)%bind_ok; lia|].
      intros [_ H]. destruct (H i) as (a & Ha & Hp); [lia|]. assert (a = a0) by congruence. lia.
Qed.

Lemma mint_multi_sum old batch s :
  mint_multi old batch = Ok s <->
  old < batch /\ s = sum_sizes (Z.to_nat (batch - old)) (old + 1) /\
  (forall i, old < i <= batch -> exists a, mint_batch_size i = Ok a /\ 0 < a).
Proof.
  unfold mint_multi. destruct (batch <=? old) eqn:E; [split; [discriminate|lia]|].
  rewrite multi_from_spec by lia. split.
  - intros [-> H]. split; [lia|]. split; [lia|]. intros i Hi. apply H. lia.
  - intros (_ & -> & H). split; [lia|]. intros j Hj. apply H. lia.
Qed.

Lemma mint_multi_backward old batch : batch <= old -> mint_multi old batch = Panic.
Proof. intros H. unfold mint_multi. replace (batch <=? old) with true by lia. reflexivity. Qed.

Lemma mint_multi_first old batch s : mint_multi old batch = Ok s ->
  exists a, mint_batch_size (old + 1) = Ok a /\ 0 < a <= s.
Proof.
  intros (Hlt & -> & Hall)%mint_multi_sum. destruct (Hall (old + 1)) as (a & Ha & Hpos); [lia|].
  exists a. split; [assumption|].
  replace (Z.to_nat (batch - old)) with (S (Z.to_nat (batch - old - 1))) by lia.
  cbn [sum_sizes]. unfold size_z at 1. rewrite Ha.
  pose proof (sum_sizes_nonneg (Z.to_nat (batch - old - 1)) (old + 1 + 1)). lia.
Qed.

Lemma mint_multi_before b1 a1 old batch : mint_batch_size b1 = Ok a1 -> 0 < a1 ->
  old < batch <= b1 -> exists s, mint_multi old batch = Ok s /\ a1 <= s.
Proof.
  intros H1 Hpos Hb.
  assert (exists s, mint_multi old batch = Ok s) as [s Hs].
  { eexists. apply mint_multi_sum. split; [lia|]. split; [reflexivity|]. intros i Hi.
    destruct (mint_batch_size_le _ _ i H1) as (a & Ha & Hle); [lia|]. exists a. split; [assumption|lia]. }
  exists s. split; [assumption|]. destruct (mint_multi_first _ _ _ Hs) as (a & Ha & Has).
  destruct (mint_batch_size_le _ _ (old + 1) H1) as (a' & Ha' & Hle); [lia|].
  rewrite Ha in Ha'. injection Ha' as <-. lia.
Qed.

(* [rest b] is what is left for batch b and all later batches: the remaining days of its
   year and the pool after that year.  It falls by at least [size_z b] per batch
   ([rest_step]), so a run of batches telescopes ([sum_sizes_rest]). *)
Definition pool_z (y : Z) : Z := match pool_after (Z.to_nat y) with Ok p => p | _ => 0 end.
Definition day_z (y : Z) : Z := match batch_size_of_year y with Ok a => a | _ => 0 end.
Definition rest (b : Z) : Z :=
  (year_days - b mod year_days) * day_z (b / year_days) + pool_z (b / year_days + 1).

Lemma pool_z_range y : 0 <= pool_z y <= mint_pool.
Proof.
  unfold pool_z. pose proof (pool_after_cases (Z.to_nat y)). pose proof mint_pool_nonneg.
  destruct (pool_after (Z.to_nat y)); lia.
Qed.

Lemma year_ineq y : 0 <= y ->
  0 <= day_z y /\ year_days * day_z y <= pool_z y - pool_z (y + 1).
Proof.
  intros Hy. unfold day_z, pool_z. rewrite batch_size_of_year_spec.
  replace (Z.to_nat (y + 1)) with (S (Z.to_nat y)) by lia. cbn [pool_after].
  pose proof (pool_after_cases (Z.to_nat y)) as C. pose proof year_days_pos.
  destruct (pool_after (Z.to_nat y)) as [p| |]; cbn [bind rmap].
  - rewrite year_step_spec by lia. pose proof (day_of_bounds p).
    destruct (10000 <? y); destruct (p / 10 <=? 0) eqn:E; lia.
  - contradiction.
  - destruct (10000 <? y); lia.
Qed.

Lemma rest_bounds b : 0 <= b -> 0 <= rest b <= mint_pool.
Proof.
  intros Hb. unfold rest. pose proof (year_ineq (b / year_days)) as Y.
  pose proof (pool_z_range (b / year_days)). pose proof (pool_z_range (b / year_days + 1)).
  change year_days with 365 in *. nia.
Qed.

Lemma rest_step b : 0 <= b -> size_z b + rest (b + 1) <= rest b.
Proof.
  intros Hb. change (size_z b) with (day_z (b / year_days)). unfold rest.
  pose proof (year_ineq (b / year_days + 1)) as Y. change year_days with 365 in *.
  destruct (Z.eq_dec (b mod 365) 364) as [Hlast|Hmid].
  - replace ((b + 1) / 365) with (b / 365 + 1) by lia.
    replace ((b + 1) mod 365) with 0 by lia. lia.
  - replace ((b + 1) / 365) with (b / 365) by lia.
    replace ((b + 1) mod 365) with (b mod 365 + 1) by lia. lia.
Qed.

Lemma sum_sizes_rest n : forall i, 0 <= i -> sum_sizes n i + rest (i + Z.of_nat n) <= rest i.
Proof.
  induction n as [|n IH]; intros i Hi; cbn [sum_sizes]; [rewrite Z.add_0_r; lia|].
  specialize (IH (i + 1) ltac:(lia)). pose proof (rest_step i Hi).
  replace (i + Z.of_nat (S n)) with (i + 1 + Z.of_nat n) by lia. lia.
Qed.

Lemma pool_years_inv y m p : pool_years y = Ok (m, p) -> 0 <= m /\ 0 <= p /\ m + p = mint_pool.
Proof.
  revert m p. induction y as [|y IH]; cbn [pool_years]; intros m p H;
    [injection H as <- <-; pose proof mint_pool_nonneg; lia|].
  apply bind_ok in H as ([m0 p0] & (Hm & Hp & Hs)%IH & H). cbn [fst snd] in H.
  rewrite product_year in H by assumption. cbn [bind] in H.
  apply bind_ok in H as (m1 & (_ & Hy & ->)%i_add_inv & H).
  apply bind_ok in H as (p1 & (_ & Hle & ->)%i_sub_inv & [= <- <-]). lia.
Qed.

Lemma pool_size_range b r : pool_size b = Ok r -> 0 <= r <= mint_pool.
Proof.
  intros H. unfold pool_size in H.
  apply bind_ok in H as ([m p] & (Hm & Hp & Hs)%pool_years_inv & H). cbn [fst snd] in H.
  rewrite product_year in H by assumption. cbn [bind] in H.
  pose proof (day_of_bounds p Hp). pose proof year_days_pos.
  rewrite i_div_ok in H by lia. cbn [bind] in H. fold (day_of p) in H.
  apply bind_ok in H as (mint & Hmint & H).
  assert (Hmr : 0 <= mint <= mint_pool).
  { destruct (0 <? b mod year_days).
    - apply bind_ok in Hmint as (d & (_ & _ & ->)%i_mul_inv & (_ & _ & ->)%i_add_inv).
      assert (day_of p * (b mod year_days) <= day_of p * year_days)
        by (apply Z.mul_le_mono_nonneg_l; lia). lia.
    - injection Hmint as <-. lia. }
  destruct (0 <? mint); [apply i_sub_inv in H; lia|]. injection H as <-. lia.
Qed.

Fixpoint zsum (l : list Z) : Z := match l with [] => 0 | x :: r => x + zsum r end.

Lemma zsum_app l1 l2 : zsum (l1 ++ l2) = zsum l1 + zsum l2.
Proof. induction l1 as [|x l1 IH]; cbn [app zsum]; lia. Qed.

Lemma zsum_pos l : Forall (fun x => 0 < x) l -> Z.of_nat (length l) <= zsum l.
Proof. induction 1; cbn [zsum length]; lia. Qed.

Lemma zsum_upper l u : Forall (fun y => y <= u) l -> zsum l <= Z.of_nat (length l) * u.
Proof. induction 1; cbn [zsum length]; lia. Qed.

Lemma zsum_const {A} (l : list A) w : zsum (map (fun _ => w) l) = Z.of_nat (length l) * w.
Proof. induction l as [|a l IH]; cbn [map zsum length]; lia. Qed.

Lemma map_res_ok {A B} (f : A -> res B) (g : A -> B) l :
  Forall (fun a => f a = Ok (g a)) l -> map_res f l = Ok (map g l).
Proof.
  induction 1 as [|a l Ha Hl IH]; cbn [map_res map]; [reflexivity|]. rewrite Ha, IH. reflexivity.
Qed.

Lemma map_res_inv_map {A B} (f : A -> res B) (g : A -> B) (P : A -> Prop) l :
  (forall a b, f a = Ok b -> P a /\ b = g a) ->
  forall r, map_res f l = Ok r -> Forall P l /\ r = map g l.
Proof.
  intros Hf. induction l as [|a l IH]; cbn [map_res map]; intros r H; [injection H as <-; auto|].
  apply bind_ok in H as (b & [Pa ->]%Hf & H). apply bind_ok in H as (bs & [Pl ->]%IH & [= <-]).
  auto.
Qed.

Lemma sum_add_inv l : forall acc t, sum_add acc l = Ok t ->
  t = acc + zsum l /\ Forall (fun x => 0 < x) l.
Proof.
  induction l as [|x l IH]; cbn [sum_add zsum]; intros acc t H;
    [injection H as <-; split; [lia|constructor]|].
  apply bind_ok in H as (a & (_ & Hx & ->)%i_add_inv & [-> HF]%IH).
  split; [lia|constructor; assumption].
Qed.

Lemma sum_add_ok l : forall acc, 0 <= acc -> Forall (fun x => 0 < x) l ->
  sum_add acc l = Ok (acc + zsum l).
Proof.
  induction l as [|x l IH]; cbn [sum_add zsum]; intros acc Hacc HF; [f_equal; lia|].
  inversion_clear HF. rewrite i_add_ok by lia. cbn [bind].
  rewrite IH by (lia || assumption). f_equal. lia.
Qed.

Lemma unit_scale_val : unit_scale = 100000000. Proof. reflexivity. Qed.

(* 1.2 per proposal + 1 per signature, in units: 20000000 * (6 lead + 5 sign);
   a sign count that is not positive adds nothing *)
Definition work_of (ls : Z * Z) : Z := 20000000 * (6 * fst ls + 5 * Z.max 0 (snd ls)).
Definition works_ok (works : list (Z * Z)) : Prop :=
  Forall (fun ls => 0 <= fst ls /\ 0 <= snd ls) works.

Lemma node_work_spec ls : node_work ls = if fst ls <? 0 then Panic else Ok (work_of ls).
Proof.
  unfold node_work, new_integer, work_of. rewrite unit_scale_val.
  destruct (fst ls <? 0) eqn:E; [unfold i_mul; replace (_ <? 0) with true by lia; reflexivity|].
  rewrite i_mul_ok by lia. cbn [bind]. rewrite i_div_ok by lia. cbn [bind].
  destruct (0 <? snd ls * 100000000) eqn:E1; [rewrite i_add_ok by lia|]; f_equal; lia.
Qed.

Lemma node_work_inv ls a : node_work ls = Ok a -> 0 <= fst ls /\ a = work_of ls.
Proof.
  rewrite node_work_spec. destruct (fst ls <? 0) eqn:E; [discriminate|]. intros [= <-].
  split; [lia|reflexivity].
Qed.

(* What the first loop keeps true of its counters when every non-zero work is at least [L].
   The last clause is what bounds the average without the least and the greatest work
   from below ([stats_avg]). *)
Definition stats_inv (L : Z) (s : stats) : Prop :=
  0 <= st_valid s /\ 0 <= st_total s /\
  (st_valid s = 0 -> st_min s = 0 /\ st_max s = 0) /\
  (1 <= st_valid s ->
     L <= st_min s /\ st_min s <= st_max s /\
     st_max s + (st_valid s - 1) * st_min s <= st_total s).

Lemma collect_inv L ws : 0 < L -> Forall (fun w => w = 0 \/ L <= w) ws ->
  forall s, stats_inv L s -> exists s', collect ws s = Ok s' /\ stats_inv L s'.
Proof.
  intros HL HF. induction HF as [|w ws Hw HF IH]; intros s Hs; cbn [collect]; [eauto|].
  destruct (w =? 0) eqn:E0; [exact (IH s Hs)|].
  destruct Hs as (Hv & Ht & Hz & Hp). rewrite i_add_ok by lia. cbn [bind]. apply IH.
  unfold stats_inv. cbn [st_valid st_min st_max st_total].
  split; [lia|]. split; [lia|]. split; [lia|]. intros _.
  destruct (Z.eq_dec (st_valid s) 0) as [Hv0|Hv1].
  - destruct (Hz Hv0) as [-> ->]. rewrite Hv0. cbn. destruct (0 <? w) eqn:E; lia.
  - destruct (Hp ltac:(lia)) as (Hmin & Hmm & Htot). replace (st_min s =? 0) with false by lia.
    destruct (w <? st_min s) eqn:E1; destruct (st_max s <? w) eqn:E2; nia.
Qed.

Lemma stats0_inv L : stats_inv L stats0.
Proof. unfold stats_inv, stats0. cbn. lia. Qed.

Lemma stats_avg L s : 0 < L -> stats_inv L s -> 3 <= st_valid s ->
  0 < st_min s <= st_total s /\ 0 < st_max s <= st_total s - st_min s /\
  L <= (st_total s - st_min s - st_max s) / (st_valid s - 2).
Proof.
  intros HL (Hv & Ht & _ & Hp) H3. destruct (Hp ltac:(lia)) as (Hmin & Hmm & Htot).
  assert ((st_valid s - 2) * st_min s <= st_total s - st_min s - st_max s) by nia.
  repeat split; nia.
Qed.

Definition remap_z (a w : Z) : Z :=
  if a * 7 <=? w then a * 2
  else if a <=? w then w / 6 + a * 5 / 6
  else if w <=? a / 7 then a / 7
  else w.

(* with an average of 1 the sum w/6 + 5/6 is an Add(0) *)
Lemma remap_spec a w :
  remap a w = if (a <? 0) || (a =? 1) && (1 <=? w) && (w <? 7) then Panic else Ok (remap_z a w).
Proof.
  unfold remap, remap_z. destruct (a <? 0) eqn:Ea; [unfold i_mul; rewrite Ea; reflexivity|].
  cbn [orb]. rewrite i_mul_ok by lia. cbn [bind]. rewrite i_div_ok by lia. cbn [bind].
  destruct (a * 7 <=? w) eqn:E1; [|destruct (a <=? w) eqn:E2].
  - rewrite i_mul_ok by lia. replace (_ && _ && _) with false by lia. reflexivity.
  - rewrite i_div_ok by lia. cbn [bind]. rewrite i_mul_ok by lia. cbn [bind].
    rewrite i_div_ok by lia. cbn [bind]. rewrite i_add_spec.
    replace ((w / 6 <? 0) || (a * 5 / 6 <=? 0)) with ((a =? 1) && (1 <=? w) && (w <? 7)) by lia.
    reflexivity.
  - replace (_ && _ && _) with false by lia. destruct (w <=? a / 7); reflexivity.
Qed.

Lemma remap_inv a w y : remap a w = Ok y -> 0 <= a /\ y = remap_z a w.
Proof.
  rewrite remap_spec. destruct (_ || _) eqn:E; [discriminate|]. intros [= <-].
  split; [lia|reflexivity].
Qed.

Lemma remap_z_mono a w1 w2 : 0 <= a -> w1 <= w2 -> remap_z a w1 <= remap_z a w2.
Proof.
  intros Ha Hw. unfold remap_z.
  destruct (a * 7 <=? w1) eqn:E1; [|destruct (a <=? w1) eqn:E2; [|destruct (w1 <=? a / 7) eqn:E3]];
  (destruct (a * 7 <=? w2) eqn:F1; [|destruct (a <=? w2) eqn:F2; [|destruct (w2 <=? a / 7) eqn:F3]]);
  lia.
Qed.

Lemma remap_z_bounds a w : 0 <= a -> a / 7 <= remap_z a w <= a * 2.
Proof.
  intros Ha. unfold remap_z.
  destruct (a * 7 <=? w) eqn:E1; [|destruct (a <=? w) eqn:E2; [|destruct (w <=? a / 7) eqn:E3]];
  lia.
Qed.

Lemma share_spec base total y :
  share base total y =
  if (y <? 0) || (total <=? 0) || (base <? 0) then Panic else Ok (base * y / total).
Proof.
  unfold share, ration, product. destruct ((y <? 0) || (total <=? 0)) eqn:E; [reflexivity|].
  cbn [bind fst snd orb]. destruct (base <? 0); [reflexivity|].
  replace (total =? 0) with false by lia. reflexivity.
Qed.

Lemma share_inv base total y m : share base total y = Ok m ->
  (0 < total /\ 0 <= base) /\ m = base * y / total.
Proof.
  rewrite share_spec. destruct (_ || _) eqn:E; [discriminate|]. intros [= <-].
  split; [lia|reflexivity].
Qed.

Definition shares (base : Z) (ys : list Z) : list Z := map (fun y => base * y / zsum ys) ys.

Lemma zsum_scaled base t l : 0 < t -> zsum (map (fun y => base * y / t) l) * t <= base * zsum l.
Proof. intros Ht. induction l as [|y l IH]; cbn [map zsum]; lia. Qed.

Lemma shares_sum base ys : 0 <= base -> Forall (fun y => 0 < y) ys -> zsum (shares base ys) <= base.
Proof.
  intros Hb Hpos%zsum_pos. destruct ys as [|y ys']; [exact Hb|]. cbn [length] in Hpos.
  pose proof (zsum_scaled base (zsum (y :: ys')) (y :: ys') ltac:(lia)). unfold shares. nia.
Qed.

(* the left side is the tail of [distribute] *)
Lemma shares_ok base ys : 0 <= base -> Forall (fun y => 0 < y) ys ->
  (do total <- sum_add 0 ys; map_res (share base total) ys) = Ok (shares base ys).
Proof.
  intros Hb Hpos. rewrite sum_add_ok by (lia || assumption). cbn [bind]. rewrite Z.add_0_l.
  apply map_res_ok, Forall_forall. intros y Hy. pose proof (zsum_pos _ Hpos).
  rewrite Forall_forall in Hpos. apply Hpos in Hy as Hy'.
  destruct ys; [contradiction|]. cbn [length] in *. rewrite share_spec.
  replace (_ || _) with false by lia. reflexivity.
Qed.

(* Every share is at least 1 when the works lie between avg/7 and 2 avg, as
   remapped works do, and the base is 28 per node: the n works sum to at most
   2 n avg, and avg <= 14 (avg/7). *)
Lemma shares_positive base avg ys : 7 <= avg ->
  Forall (fun y => avg / 7 <= y <= avg * 2) ys -> 28 * Z.of_nat (length ys) <= base ->
  Forall (fun m => 0 < m) (shares base ys).
Proof.
  intros Ha Hys Hb. set (n := Z.of_nat (length ys)) in *.
  assert (Hlo : n <= zsum ys)
    by (apply zsum_pos; eapply Forall_impl; [|exact Hys]; intros y []; lia).
  assert (Hhi : zsum ys <= n * (avg * 2))
    by (apply zsum_upper; eapply Forall_impl; [|exact Hys]; intros y []; assumption).
  apply Forall_map, Forall_forall. intros y Hy.
  assert (0 < n) by (destruct ys; [contradiction|unfold n; cbn [length]; lia]).
  rewrite Forall_forall in Hys. apply Hys in Hy as [Hy _]. apply Z.div_str_pos. split; [lia|].
  assert (n * avg <= n * (14 * (avg / 7))) by (apply Z.mul_le_mono_nonneg_l; lia).
  assert (28 * n * (avg / 7) <= base * (avg / 7)) by (apply Z.mul_le_mono_nonneg_r; lia).
  assert (base * (avg / 7) <= base * y) by (apply Z.mul_le_mono_nonneg_l; lia). lia.
Qed.

Lemma distribute_inv works thr base mints : distribute false works thr base = Ok mints ->
  exists avg, let ys := map (remap_z avg) (map work_of works) in
    0 <= avg /\ Forall (fun y => 0 < y) ys /\ 0 < zsum ys /\ 0 <= base /\ mints = shares base ys.
Proof.
  unfold distribute. intros H.
  (* without works the first subtraction is total.Sub(0) *)
  assert (Hne : works <> []) by (intros ->; cbn in H; destruct (0 <? thr); discriminate H).
  apply bind_ok in H as (ws & [_ ->]%(map_res_inv_map _ _ _ _ node_work_inv) & H).
  apply bind_ok in H as (s & _ & H). destruct (st_valid s <? thr); [discriminate|].
  apply bind_ok in H as (t1 & _ & H). apply bind_ok in H as (t2 & _ & H).
  apply bind_ok in H as (avg & (Ht2 & Hv & ->)%i_div_inv & H).
  destruct (_ =? 0); [discriminate|].
  apply bind_ok in H as (ys & [_ ->]%(map_res_inv_map _ _ _ _ (remap_inv _)) & H).
  apply bind_ok in H as (total & [-> Hpos]%sum_add_inv & H). rewrite Z.add_0_l in H.
  apply (map_res_inv_map _ _ _ _ (share_inv base _)) in H as [HP ->].
  destruct works as [|w works]; [congruence|]. apply Forall_inv in HP as [Ht Hb].
  exists (t2 / (st_valid s - 2)). repeat split; try assumption. apply Z.div_pos; lia.
Qed.

Lemma distribute_sum day0 works thr base mints :
  distribute day0 works thr base = Ok mints -> zsum mints <= base /\ length mints = length works.
Proof.
  intros H. destruct day0.
  - apply bind_ok in H as (w & (_ & Hn & ->)%i_div_inv & [= <-]).
    rewrite zsum_const, map_length. split; [lia|reflexivity].
  - apply distribute_inv in H as (avg & _ & Hpos & _ & Hb & ->).
    split; [apply shares_sum; assumption|]. unfold shares. rewrite !map_length. reflexivity.
Qed.

Lemma distribute_monotone day0 works thr base mints i j wi wj a b mi mj :
  distribute day0 works thr base = Ok mints ->
  nth_error works i = Some wi -> nth_error works j = Some wj ->
  node_work wi = Ok a -> node_work wj = Ok b -> a <= b ->
  nth_error mints i = Some mi -> nth_error mints j = Some mj -> mi <= mj.
Proof.
  intros H Hi Hj Ha Hb Hab Hmi Hmj. destruct day0.
  - apply bind_ok in H as (w & _ & [= <-]). rewrite nth_error_map in Hmi, Hmj.
    rewrite Hi in Hmi. rewrite Hj in Hmj. injection Hmi as <-. injection Hmj as <-. lia.
  - apply distribute_inv in H as (avg & Havg & _ & Ht & Hb0 & ->).
    unfold shares in Hmi, Hmj. rewrite !nth_error_map, Hi in Hmi. rewrite !nth_error_map, Hj in Hmj.
    injection Hmi as <-. injection Hmj as <-.
    apply node_work_inv in Ha as [_ ->]. apply node_work_inv in Hb as [_ ->].
    apply Z.div_le_mono; [lia|]. apply Z.mul_le_mono_nonneg_l; [lia|]. apply remap_z_mono; assumption.
Qed.

Lemma works_ok_works works : works_ok works ->
  map_res node_work works = Ok (map work_of works) /\
  Forall (fun w => w = 0 \/ unit_scale <= w) (map work_of works).
Proof.
  intros Hw. split.
  - apply map_res_ok. eapply Forall_impl; [|exact Hw]. intros ls []. rewrite node_work_spec.
    replace (_ <? 0) with false by lia. reflexivity.
  - apply Forall_map. eapply Forall_impl; [|exact Hw]. intros ls [].
    unfold work_of. rewrite unit_scale_val. lia.
Qed.

Lemma remaps_ok avg ws : 1 < avg -> map_res (remap avg) ws = Ok (map (remap_z avg) ws).
Proof.
  intros Ha. apply map_res_ok, Forall_forall. intros w _. rewrite remap_spec.
  replace (_ || _) with false by lia. reflexivity.
Qed.

Lemma distribute_guard day0 works thr base :
  works_ok works -> 3 <= thr -> 1 <= Z.of_nat (length works) ->
  28 * Z.of_nat (length works) <= base ->
  distribute day0 works thr base = Err \/
  exists mints, distribute day0 works thr base = Ok mints /\ Forall (fun m => 0 < m) mints.
Proof.
  intros Hw Hthr Hn Hbase. unfold distribute. destruct day0.
  - right. rewrite i_div_ok by lia. eexists. split; [reflexivity|].
    apply Forall_map, Forall_forall. intros _ _. apply Z.div_str_pos. lia.
  - destruct (works_ok_works works Hw) as [-> Hws]. cbn [bind]. set (ws := map work_of works) in *.
    destruct (collect_inv unit_scale ws eq_refl Hws stats0 (stats0_inv _)) as (s & -> & Hs).
    cbn [bind]. destruct (st_valid s <? thr) eqn:Et; [left; reflexivity|right].
    destruct (stats_avg unit_scale s eq_refl Hs ltac:(lia)) as (Hmin & Hmax & Havg). clear Hs Hws.
    rewrite unit_scale_val in Havg.
    rewrite i_sub_ok by lia. cbn [bind]. rewrite i_sub_ok by lia. cbn [bind].
    rewrite i_div_ok by lia. cbn [bind].
    set (avg := (st_total s - st_min s - st_max s) / (st_valid s - 2)) in *. clearbody avg.
    replace (avg =? 0) with false by lia.
    rewrite remaps_ok by lia. cbn [bind].
    assert (Hys : Forall (fun y => avg / 7 <= y <= avg * 2) (map (remap_z avg) ws))
      by (apply Forall_map, Forall_forall; intros; apply remap_z_bounds; lia).
    rewrite shares_ok by (lia || (eapply Forall_impl; [|exact Hys]; intros y []; lia)).
    eexists. split; [reflexivity|]. apply (shares_positive base avg); [lia|assumption|].
    unfold ws. rewrite !map_length. assumption.
Qed.

(* the two `total > amount` panics removed *)
Definition mint_outputs_noguard (amount : Z) (mints : list Z) : res (list Z) :=
  do total <- sum_add 0 mints;
  do t10 <- i_div amount 10;
  do safe <- i_mul t10 4;
  do total2 <- i_add total safe;
  do light <- i_sub amount total2;
  Ok (mints ++ [safe; light]).

Definition build_outputs_noguard (batch amount : Z) (day0 : bool) (is_ready : bool)
           (works : list (Z * Z)) (thr : Z) : res (list Z) :=
  if (amount <=? 0) || (batch <=? legacy_ending) then Err
  else
    do t10 <- i_div amount 10;
    do kernel <- i_mul t10 5;
    if negb day0 && negb is_ready then Err
    else
      do mints <- distribute day0 works thr kernel;
      mint_outputs_noguard amount mints.

(* Whatever the shares are, the two checks change nothing: where one of them
   would fire, amount.Sub(total) panics as well. *)
Lemma mint_outputs_guards amount mints :
  mint_outputs amount mints = mint_outputs_noguard amount mints.
Proof.
  unfold mint_outputs, mint_outputs_noguard.
  destruct (sum_add 0 mints) as [total| |]; cbn [bind]; try reflexivity.
  destruct (amount <? 0) eqn:E0.
  - unfold i_div. rewrite E0. cbn [orb bind]. destruct (amount <? total); reflexivity.
  - rewrite i_div_ok by lia. cbn [bind]. rewrite i_mul_ok by lia. cbn [bind]. rewrite i_add_spec.
    destruct ((total <? 0) || (amount / 10 * 4 <=? 0)) eqn:E1; cbn [bind];
      [destruct (amount <? total); reflexivity|].
    rewrite i_sub_spec.
    destruct (amount <? total) eqn:E2; [|destruct (amount <? total + amount / 10 * 4) eqn:E3];
      try reflexivity; (replace (_ || _ || _) with true by lia); reflexivity.
Qed.

Lemma mint_outputs_spec amount mints outs :
  mint_outputs amount mints = Ok outs <->
  Forall (fun m => 0 < m) mints /\ 10 <= amount /\ zsum mints + amount / 10 * 4 <= amount /\
  outs = mints ++ [amount / 10 * 4; amount - zsum mints - amount / 10 * 4].
Proof.
  rewrite mint_outputs_guards. unfold mint_outputs_noguard. split.
  - intros H. apply bind_ok in H as (total & [-> Hpos]%sum_add_inv & H).
    apply bind_ok in H as (t10 & (_ & _ & ->)%i_div_inv & H).
    apply bind_ok in H as (safe & (_ & _ & ->)%i_mul_inv & H).
    apply bind_ok in H as (total2 & (_ & Hs & ->)%i_add_inv & H).
    apply bind_ok in H as (light & (_ & Hl & ->)%i_sub_inv & [= <-]).
    repeat split; try assumption; try lia. do 3 f_equal. lia.
  - intros (Hpos & Ha & Hle & ->). pose proof (zsum_pos _ Hpos).
    rewrite sum_add_ok by (lia || assumption). cbn [bind]. rewrite i_div_ok by lia. cbn [bind].
    rewrite i_mul_ok by lia. cbn [bind]. rewrite i_add_ok by lia. cbn [bind].
    rewrite i_sub_ok by lia. cbn [bind]. do 4 f_equal. lia.
Qed.

Lemma build_outputs_spec batch amount day0 is_ready works thr :
  build_outputs batch amount day0 is_ready works thr =
  if (amount <=? 0) || (batch <=? legacy_ending) || negb day0 && negb is_ready then Err
  else do mints <- distribute day0 works thr (amount / 10 * 5); mint_outputs amount mints.
Proof.
  unfold build_outputs.
  destruct ((amount <=? 0) || (batch <=? legacy_ending)) eqn:E; [reflexivity|].
  rewrite i_div_ok by lia. cbn [bind orb]. rewrite i_mul_ok by lia. reflexivity.
Qed.

Lemma build_outputs_inv batch amount day0 is_ready works thr outs :
  build_outputs batch amount day0 is_ready works thr = Ok outs ->
  exists mints light,
    distribute day0 works thr (amount / 10 * 5) = Ok mints /\
    outs = mints ++ [amount / 10 * 4; light] /\
    length mints = length works /\
    zsum mints + amount / 10 * 4 + light = amount /\
    zsum mints <= amount / 10 * 5 /\ 2 * zsum mints <= amount /\
    Forall (fun m => 0 < m) mints /\ 0 < amount / 10 * 4 /\ 0 < light.
Proof.
  rewrite build_outputs_spec. destruct (_ || _ || _ && _); [discriminate|].
  intros (mints & Hd & (Hpos & Ha & Hle & ->)%mint_outputs_spec)%bind_ok.
  destruct (distribute_sum _ _ _ _ _ Hd) as [Hs Hlen].
  exists mints, (amount - zsum mints - amount / 10 * 4). repeat split; try assumption; lia.
Qed.
