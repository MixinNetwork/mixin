(* Lemmas about Model/RoundHash.v: the (timestamp, hash) order has a unique
   sorted permutation, so both round-hash transcriptions compute a function of
   the multiset of (timestamp, hash) pairs, whatever sorting procedure is used. *)
From Coq Require Import List ZArith NArith Bool Lia ZifyN ZifyBool Permutation Sorted.
Require Import Mixin.Base.Res Mixin.Gen.Consts Mixin.Model.RoundHash Mixin.Proofs.Lists.
Import ListNotations.
Open Scope N_scope.

(* What a sort.Slice call guarantees.  It is given only [less], so sortedness
   reads "no later element is less than an earlier one"; that the sorted keys
   are unique then comes from [key_le_antisym], and elements with equal
   (timestamp, hash) may stand in any order. *)
Definition sort_spec {A : Type} (lt : A -> A -> bool) (sort : list A -> list A) : Prop :=
  forall l, Permutation (sort l) l /\ StronglySorted (fun a b => lt b a = false) (sort l).

Definition key_le (a b : N * N) : Prop := key_lt b a = false.

Lemma key_le_antisym a b : key_le a b -> key_le b a -> a = b.
Proof.
  destruct a as [a1 a2], b as [b1 b2]. unfold key_le, key_lt. cbn [fst snd]. intros H1 H2.
  f_equal; lia.
Qed.

Lemma snap_lt_key a b : snap_lt a b = key_lt (skey a) (skey b).
Proof.
  unfold snap_lt, key_lt, skey. cbn [fst snd].
  destruct (N.ltb_spec (s_ts a) (s_ts b)); [reflexivity|].
  destruct (N.ltb_spec (s_ts b) (s_ts a)), (N.eqb_spec (s_ts a) (s_ts b)); try reflexivity; lia.
Qed.

Lemma tsnap_lt_snap a b : tsnap_lt a b = snap_lt (t_snap a) (t_snap b).
Proof. reflexivity. Qed.

Lemma sorted_keys (sl : list snap) :
  StronglySorted (fun a b => snap_lt b a = false) sl -> StronglySorted key_le (map skey sl).
Proof. apply StronglySorted_map. intros a b. unfold key_le. rewrite snap_lt_key. auto. Qed.

Lemma sorted_keys_unique sl sl' :
  StronglySorted (fun a b => snap_lt b a = false) sl -> StronglySorted (fun a b => snap_lt b a = false) sl' ->
  Permutation (map skey sl) (map skey sl') -> map skey sl = map skey sl'.
Proof.
  intros S S' HP. apply (StronglySorted_unique key_le); [intros a b _ _; apply key_le_antisym|exact HP| |]; apply sorted_keys; assumption.
Qed.

Section Bounds.
Context {A : Type} (key : A -> N) (lt : A -> A -> bool).
Hypothesis lt_key : forall a b, lt b a = false -> key a <= key b.

Lemma sorted_le_last l : StronglySorted (fun a b => lt b a = false) l ->
  forall d s, In s l -> key s <= key (last l d).
Proof.
  induction 1 as [|x t _ IH F]; intros d s Hs; [destruct Hs|].
  destruct t as [|y t]; [destruct Hs as [<-|[]]; cbn; lia|]. destruct Hs as [<-|Hs]; [|exact (IH d s Hs)].
  change (key x <= key (last (y :: t) d)). apply lt_key. rewrite Forall_forall in F. apply F, last_in. discriminate.
Qed.

Lemma sorted_bounds a l : StronglySorted (fun a b => lt b a = false) (a :: l) ->
  forall s, In s (a :: l) -> key a <= key s <= key (last (a :: l) a).
Proof.
  intros HS s Hs. split; [|exact (sorted_le_last _ HS a s Hs)].
  apply StronglySorted_inv in HS as [_ F]. rewrite Forall_forall in F.
  destruct Hs as [<-|Hs]; [lia | apply lt_key, F, Hs].
Qed.

Lemma sort_bounds sort : sort_spec lt sort -> forall l, l <> [] ->
  exists s0 sl, sort l = s0 :: sl /\ In s0 l /\ In (last (s0 :: sl) s0) l /\
    forall s, In s l -> key s0 <= key s <= key (last (s0 :: sl) s0).
Proof.
  intros HS l Hne. destruct (HS l) as [HP S]. destruct (sort l) as [|s0 sl].
  - destruct Hne. exact (Permutation_nil HP).
  - exists s0, sl. split; [reflexivity|]. split; [exact (Permutation_in _ HP (or_introl eq_refl))|].
    split; [apply (Permutation_in _ HP), last_in; discriminate|].
    intros s Hs. apply (sorted_bounds _ _ S), (Permutation_in _ (Permutation_sym HP)), Hs.
Qed.
End Bounds.

Lemma snap_lt_ts a b : snap_lt b a = false -> s_ts a <= s_ts b.
Proof. unfold snap_lt. destruct (N.ltb_spec (s_ts b) (s_ts a)); [discriminate | auto]. Qed.

Section Spec.
Variable H : hin -> N.

Definition fold_keys (h0 : N) (ks : list (N * N)) : N :=
  fold_left (fun h k => H (HLink h (snd k))) ks h0.

(* What both transcriptions compute, as a function of the sorted key list.  The
   version and timestamp panics of the chaining loop are left out: on a sorted
   slice they cannot fire ([chain_common_ok]). *)
Definition round_hash_spec (node number : N) (ks : list (N * N)) : res (N * N * N) :=
  match ks with
  | [] => Panic
  | k0 :: _ =>
      let start := fst k0 in
      let end_ := fst (last ks k0) in
      if add64 start round_gap <=? end_ then Panic
      else Ok (start, end_, fold_keys (H (HSeed node number)) ks)
  end.

Lemma max_version_ge l : forall v,
  v <= max_version v l /\ Forall (fun s => s_version s <= max_version v l) l.
Proof.
  induction l as [|s l IH]; intro v; cbn [max_version]; [split; [lia | constructor]|].
  destruct (IH (if v <? s_version s then s_version s else v)) as [H1 H2].
  destruct (N.ltb_spec v (s_version s)); split; try constructor; try exact H2; lia.
Qed.

Lemma chain_common_ok l : forall version end_ h,
  Forall (fun s => s_version s <= version) l ->
  Forall (fun s => s_ts s <= end_) l ->
  chain_common H version end_ h l = Ok (fold_keys h (map skey l)).
Proof.
  induction l as [|s l IH]; intros version end_ h FV FT; [reflexivity|].
  apply Forall_cons_iff in FV as [V1 V2], FT as [T1 T2]. cbn [chain_common].
  rewrite (proj2 (N.ltb_ge _ _) V1), (proj2 (N.ltb_ge _ _) T1). apply IH; assumption.
Qed.

(* [fun x => x] as the sort: the body of ComputeRoundHash on a slice already sorted *)
Lemma common_sorted_spec node number sl :
  StronglySorted (fun a b => snap_lt b a = false) sl ->
  round_hash_common H (fun x => x) node number sl = round_hash_spec node number (map skey sl).
Proof.
  intros HS. unfold round_hash_common, round_hash_spec. destruct sl as [|s0 sl']; [reflexivity|].
  cbn [map]. change (skey s0 :: map skey sl') with (map skey (s0 :: sl')).
  rewrite (last_map skey (s0 :: sl') s0). cbn [skey fst].
  destruct (add64 (s_ts s0) round_gap <=? s_ts (last (s0 :: sl') s0)); [reflexivity|].
  rewrite chain_common_ok; [reflexivity | apply max_version_ge|].
  apply Forall_forall. intros s Hs. apply (sorted_bounds s_ts snap_lt snap_lt_ts _ _ HS s Hs).
Qed.

Lemma common_spec : forall sort, sort_spec snap_lt sort -> forall node number l,
  round_hash_common H sort node number l = round_hash_spec node number (map skey (sort l)).
Proof. intros sort HS node number l. rewrite <- common_sorted_spec by apply HS. reflexivity. Qed.

Lemma max_version_t_map l : forall v, max_version_t v l = max_version v (map t_snap l).
Proof. induction l as [|s l IH]; intro v; [reflexivity | apply IH]. Qed.

Lemma chain_storage_map l : forall version end_ h,
  chain_storage H version end_ h l = chain_common H version end_ h (map t_snap l).
Proof.
  induction l as [|s l IH]; intros version end_ h; [reflexivity|]. cbn [chain_storage chain_common map].
  destruct (version <? s_version (t_snap s)), (end_ <? s_ts (t_snap s)); auto.
Qed.

Lemma storage_as_common sort_t node number l :
  round_hash_storage H sort_t node number l =
  round_hash_common H (fun x => x) node number (map t_snap (sort_t l)).
Proof.
  unfold round_hash_storage, round_hash_common. destruct (sort_t l) as [|s0 sl']; [reflexivity|].
  cbn [map]. rewrite <- (last_map t_snap (s0 :: sl') s0), max_version_t_map, chain_storage_map. reflexivity.
Qed.

Lemma storage_spec sort_t : sort_spec tsnap_lt sort_t -> forall node number l,
  round_hash_storage H sort_t node number l =
  round_hash_spec node number (map skey (map t_snap (sort_t l))).
Proof.
  intros HS node number l. rewrite storage_as_common. apply common_sorted_spec.
  apply (StronglySorted_map t_snap _ _ _ (fun a b E => E)), HS.
Qed.

Theorem common_depends_only_on_keys : forall sort sort', sort_spec snap_lt sort -> sort_spec snap_lt sort' ->
  forall node number l l', Permutation (map skey l) (map skey l') ->
  round_hash_common H sort node number l = round_hash_common H sort' node number l'.
Proof.
  intros sort sort' HS HS' node number l l' HP.
  rewrite (common_spec sort HS), (common_spec sort' HS'). f_equal.
  apply sorted_keys_unique; [apply HS | apply HS'|].
  rewrite (Permutation_map skey (proj1 (HS l))), (Permutation_map skey (proj1 (HS' l'))). exact HP.
Qed.

Theorem common_perm_invariant : forall sort, sort_spec snap_lt sort ->
  forall node number l l', Permutation l l' ->
  round_hash_common H sort node number l = round_hash_common H sort node number l'.
Proof.
  intros sort HS node number l l' HP.
  apply common_depends_only_on_keys; [exact HS | exact HS | apply Permutation_map; exact HP].
Qed.

Theorem two_impls_agree : forall sort sort_t, sort_spec snap_lt sort -> sort_spec tsnap_lt sort_t ->
  forall node number lt,
  round_hash_storage H sort_t node number lt = round_hash_common H sort node number (map t_snap lt).
Proof.
  intros sort sort_t HS HT node number lt.
  rewrite (storage_spec sort_t HT), (common_spec sort HS). f_equal.
  apply sorted_keys_unique; [apply (StronglySorted_map t_snap _ _ _ (fun a b E => E)), HT | apply HS|].
  rewrite (Permutation_map skey (proj1 (HS _))), (Permutation_map t_snap (proj1 (HT lt))). reflexivity.
Qed.

Lemma spec_ok_inv : forall node number ks r, round_hash_spec node number ks = Ok r ->
  exists k0 ks', ks = k0 :: ks' /\ fst (fst r) = fst k0 /\ snd (fst r) = fst (last ks k0) /\
                 add64 (fst k0) round_gap > fst (last ks k0).
Proof.
  intros node number ks r Hr. unfold round_hash_spec in Hr. destruct ks as [|k0 ks']; [discriminate|].
  exists k0, ks'. destruct (add64 (fst k0) round_gap <=? fst (last (k0 :: ks') k0)) eqn:E; [discriminate|].
  injection Hr as <-. cbn [fst snd]. repeat split. lia.
Qed.
End Spec.

(* [sort_spec] is not vacuous: the insertion sort the model is run with meets it *)
Section Isort.
Context {A : Type} (lt : A -> A -> bool).
Hypothesis lt_asym : forall a b, lt a b = true -> lt b a = false.
Hypothesis lt_negtrans : forall a b c, lt b a = false -> lt c b = false -> lt c a = false.

Lemma insert_perm x l : Permutation (insert_by lt x l) (x :: l).
Proof.
  induction l as [|y t IH]; [reflexivity|]. cbn [insert_by]. destruct (lt y x); [|reflexivity].
  rewrite IH. apply perm_swap.
Qed.

Lemma insert_sorted x l : StronglySorted (fun a b => lt b a = false) l ->
  StronglySorted (fun a b => lt b a = false) (insert_by lt x l).
Proof.
  intros HS. induction HS as [|y t HS IH F]; cbn [insert_by]; [repeat constructor|].
  destruct (lt y x) eqn:E; constructor; auto.
  - rewrite (insert_perm x t). constructor; auto.
  - constructor; assumption.
  - constructor; [exact E|]. revert F. apply Forall_impl. intros z. apply lt_negtrans, E.
Qed.

Lemma isort_spec : sort_spec lt (isort_by lt).
Proof.
  intro l. unfold isort_by. induction l as [|x l [IHp IHs]]; cbn [fold_right]; [split; constructor|].
  split; [rewrite insert_perm, IHp; reflexivity | apply insert_sorted, IHs].
Qed.
End Isort.

Lemma snap_lt_asym a b : snap_lt a b = true -> snap_lt b a = false.
Proof. rewrite !snap_lt_key. unfold key_lt. cbn [fst snd]. lia. Qed.
Lemma snap_lt_negtrans a b c : snap_lt b a = false -> snap_lt c b = false -> snap_lt c a = false.
Proof. rewrite !snap_lt_key. unfold key_lt. cbn [fst snd]. lia. Qed.

Lemma isort_snap_spec : sort_spec snap_lt isort_snap.
Proof. apply isort_spec; [exact snap_lt_asym | exact snap_lt_negtrans]. Qed.
Lemma isort_tsnap_spec : sort_spec tsnap_lt isort_tsnap.
Proof.
  apply isort_spec; [intros a b | intros a b c]; rewrite !tsnap_lt_snap;
    [apply snap_lt_asym | apply snap_lt_negtrans].
Qed.
