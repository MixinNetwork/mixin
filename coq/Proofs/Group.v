(* Arithmetic modulo the group order: an opaque congruence relation with
   Proper instances, sums, and inverses and cancellation for a prime modulus. *)
From Coq Require Import List ZArith Bool Lia Znumtheory Morphisms Permutation.
Require Import Mixin.Model.Group.
Import ListNotations.
Open Scope Z_scope.

(* sealed: [cg] never unfolds to an equation, so [rewrite] always goes through
   the Proper instances below *)
Definition cg_pack : { R : Z -> Z -> Z -> Prop | forall l a b, R l a b <-> a mod l = b mod l }.
Proof. exists (fun l a b => a mod l = b mod l). intros; reflexivity. Qed.

Definition cg : Z -> Z -> Z -> Prop := proj1_sig cg_pack.

Lemma cg_iff : forall l a b, cg l a b <-> a mod l = b mod l.
Proof. exact (proj2_sig cg_pack). Qed.

#[global] Instance cg_equiv l : Equivalence (cg l).
Proof.
  split; [intros x | intros x y H | intros x y z H1 H2]; apply cg_iff; rewrite ?cg_iff in *; congruence.
Qed.

Lemma cg_binop : forall l (f : Z -> Z -> Z),
  (forall a b, f a b mod l = f (a mod l) (b mod l) mod l) -> Proper (cg l ==> cg l ==> cg l) f.
Proof.
  intros l f Hf a b H c d H'. apply cg_iff. apply cg_iff in H, H'. rewrite Hf, H, H', <- Hf. reflexivity.
Qed.

#[global] Instance cg_add l : Proper (cg l ==> cg l ==> cg l) Z.add.
Proof. apply cg_binop. intros. apply Zplus_mod. Qed.

#[global] Instance cg_sub l : Proper (cg l ==> cg l ==> cg l) Z.sub.
Proof. apply cg_binop. intros. apply Zminus_mod. Qed.

#[global] Instance cg_mul l : Proper (cg l ==> cg l ==> cg l) Z.mul.
Proof. apply cg_binop. intros. apply Zmult_mod. Qed.

#[global] Instance cg_opp l : Proper (cg l ==> cg l) Z.opp.
Proof. intros a b H. rewrite <- (Z.sub_0_l a), <- (Z.sub_0_l b), H. reflexivity. Qed.

Lemma cg_mod : forall l a, cg l (a mod l) a.
Proof. intros. apply cg_iff. apply Zmod_mod. Qed.

Lemma cg_eq : forall l a b, a = b -> cg l a b.
Proof. intros; subst; reflexivity. Qed.

Lemma cg_small : forall l a b, 0 <= a < l -> 0 <= b < l -> cg l a b -> a = b.
Proof. intros l a b Ha Hb H. apply cg_iff in H. rewrite !Z.mod_small in H by assumption. exact H. Qed.

Lemma cg_zero_mod : forall l a, cg l a 0 <-> a mod l = 0.
Proof. intros. rewrite cg_iff, Zmod_0_l. reflexivity. Qed.

#[global] Typeclasses Opaque cg.

Ltac cg_ring := apply cg_eq; ring.

Lemma fadd_cg : forall l a b, cg l (fadd l a b) (a + b).
Proof. intros. unfold fadd. apply cg_mod. Qed.
Lemma fmul_cg : forall l a b, cg l (fmul l a b) (a * b).
Proof. intros. unfold fmul. apply cg_mod. Qed.
Lemma fsub_cg : forall l a b, cg l (fsub l a b) (a - b).
Proof. intros. unfold fsub. apply cg_mod. Qed.

Definition zsum (xs : list Z) : Z := fold_right Z.add 0 xs.

Lemma fsum_cg : forall l xs, cg l (fsum l xs) (zsum xs).
Proof. intros. unfold fsum. apply cg_mod. Qed.

Lemma zsum_cons : forall x xs, zsum (x :: xs) = x + zsum xs.
Proof. reflexivity. Qed.
Lemma zsum_nil : zsum [] = 0.
Proof. reflexivity. Qed.

Lemma zsum_app : forall a b, zsum (a ++ b) = zsum a + zsum b.
Proof.
  induction a as [|x a IH]; intros b; [reflexivity|].
  rewrite <- app_comm_cons, !zsum_cons, IH. ring.
Qed.

Lemma zsum_perm : forall a b, Permutation a b -> zsum a = zsum b.
Proof. induction 1; rewrite ?zsum_cons in *; lia. Qed.

Lemma zsum_map_cg : forall l {A} (f g : A -> Z) ts,
  (forall t, In t ts -> cg l (f t) (g t)) -> cg l (zsum (map f ts)) (zsum (map g ts)).
Proof.
  intros l A f g ts. induction ts as [|t ts IH]; intros Hfg; cbn [map]; [reflexivity|].
  rewrite !zsum_cons. rewrite (Hfg t (or_introl eq_refl)), IH; [reflexivity|].
  intros; apply Hfg; right; assumption.
Qed.

Lemma zsum_map_lin : forall {A} x (f g : A -> Z) ts,
  zsum (map (fun t => x * f t + g t) ts) = x * zsum (map f ts) + zsum (map g ts).
Proof.
  intros A x f g ts. induction ts as [|t ts IH]; cbn [map]; [cbn; ring|].
  rewrite !zsum_cons, IH. ring.
Qed.

Lemma fsum_range : forall l xs, 0 < l -> 0 <= fsum l xs < l.
Proof. intros. unfold fsum. apply Z.mod_pos_bound. assumption. Qed.

Lemma point_ok_iff : forall l p, point_ok l p = true <-> 0 < p < l.
Proof. intros. unfold point_ok. rewrite andb_true_iff, !Z.ltb_lt. tauto. Qed.

Lemma scalar_ok_iff : forall l s, scalar_ok l s = true <-> 0 <= s < l.
Proof. intros. unfold scalar_ok. rewrite andb_true_iff, Z.leb_le, Z.ltb_lt. tauto. Qed.

Lemma inv_exists : forall l x, prime l -> x mod l <> 0 -> exists w, cg l (x * w) 1.
Proof.
  intros l x Hp Hx.
  destruct (rel_prime_bezout _ _ (prime_rel_prime l Hp x (fun Hd => Hx (Zdivide_mod _ _ Hd)))) as [u v Huv].
  exists v. apply cg_iff. replace (x * v) with (1 + (- u) * l) by lia. apply Z_mod_plus_full.
Qed.

Lemma cg_solve : forall l x w y z, cg l (x * w) 1 -> cg l (x * y) z -> cg l y (z * w).
Proof.
  intros l x w y z Hw Hy. rewrite <- Hy. replace (x * y * w) with (x * w * y) by ring. rewrite Hw. cg_ring.
Qed.

Lemma cg_cancel : forall l x a b, prime l -> x mod l <> 0 -> cg l (x * a) (x * b) -> cg l a b.
Proof.
  intros l x a b Hp Hx H. destruct (inv_exists l x Hp Hx) as [w Hw].
  rewrite (cg_solve l x w a _ Hw H). symmetry. apply (cg_solve l x w); [exact Hw | reflexivity].
Qed.

Lemma cg_add_cancel_l : forall l r u v, cg l (r + u) (r + v) -> cg l u v.
Proof. intros l r u v E. replace u with (r + u - r) by ring. rewrite E. cg_ring. Qed.

Lemma cg_sub_0 : forall l a b, cg l a b <-> cg l (b - a) 0.
Proof.
  intros l a b. split; intro E; [rewrite E; cg_ring|].
  replace b with (a + (b - a)) by ring. rewrite E. cg_ring.
Qed.

Lemma egcd_bezout : forall fuel a b g u v, egcd fuel a b = (g, u, v) -> u * a + v * b = g.
Proof.
  induction fuel as [|f IH]; intros a b g u v H; cbn [egcd] in H.
  - inversion H; subst. ring.
  - destruct (b =? 0) eqn:Eb.
    + inversion H; subst. ring.
    + destruct (egcd f b (a mod b)) as [[g' u'] v'] eqn:Er.
      inversion H; subst. specialize (IH _ _ _ _ _ Er).
      apply Z.eqb_neq in Eb. pose proof (Z_div_mod_eq_full a b). nia.
Qed.
