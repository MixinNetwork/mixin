(* Lemmas about Model/Election.v: the (timestamp, id) sort and its uniqueness
   (same argument as in Proofs/MembershipPerm.v, whose records carry N
   timestamps), the membership lists, election, removal candidate, hour windows. *)
From Coq Require Import List ZArith NArith Bool Lia ZifyN ZifyNat ZifyBool Permutation Sorted.
Require Import Mixin.Base.Res Mixin.Gen.Consts Mixin.Model.Election
               Mixin.Proofs.Res Mixin.Proofs.Lists.
Import ListNotations.
Open Scope Z_scope.

Lemma rec_lt_eq : forall a b,
  rec_lt a b = (r_ts a <? r_ts b) || ((r_ts a =? r_ts b) && (r_id a <? r_id b)%N).
Proof. intros a b. unfold rec_lt. destruct (r_ts a <? r_ts b) eqn:E1, (r_ts b <? r_ts a) eqn:E2; lia. Qed.

Lemma rec_lt_false_trans : forall a b c,
  rec_lt a b = false -> rec_lt b c = false -> rec_lt a c = false.
Proof. intros a b c. rewrite !rec_lt_eq. lia. Qed.

Lemma insert_perm : forall x l, Permutation (insert x l) (x :: l).
Proof.
  intros x l. induction l as [|y l IH]; cbn [insert]; [reflexivity|].
  destruct (rec_lt y x); [|reflexivity]. rewrite IH. apply perm_swap.
Qed.

Lemma sort_perm : forall l, Permutation (sort l) l.
Proof.
  induction l as [|x l IH]; [reflexivity|].
  unfold sort in *. cbn [fold_right]. rewrite insert_perm, IH. reflexivity.
Qed.

Lemma sort_length : forall l, length (sort l) = length l.
Proof. intro l. apply Permutation_length, sort_perm. Qed.

Inductive sorted : list nrec -> Prop :=
| sorted_nil : sorted []
| sorted_cons : forall y l, Forall (fun z => rec_lt z y = false) l -> sorted l -> sorted (y :: l).

Lemma insert_sorted : forall x l, sorted l -> sorted (insert x l).
Proof.
  intros x l H. induction H as [|y l Hy Hs IH]; cbn [insert]; [repeat constructor|].
  destruct (rec_lt y x) eqn:E.
  - constructor; [|exact IH]. rewrite insert_perm. constructor; [|exact Hy].
    rewrite rec_lt_eq in *. lia.
  - constructor; [|constructor; assumption]. constructor; [exact E|].
    eapply Forall_impl; [|exact Hy]. intros z Hz. exact (rec_lt_false_trans _ _ _ Hz E).
Qed.

Lemma sort_sorted : forall l, sorted (sort l).
Proof.
  induction l as [|x l IH]; [constructor|].
  unfold sort in *. cbn [fold_right]. apply insert_sorted; exact IH.
Qed.

(* The storage layer keys a membership record by (timestamp, signer), and the
   node id is derived from the signer, so no two records of a history carry the
   same (timestamp, id) pair.  LoadConsensusNodes reads the records with
   storage.ReadAllNodes(_, true), which hands them over in the store's key
   order, and re-sorts them by (timestamp, id).  Under that guarantee the
   sorted history is unique, whatever order the records arrive in. *)
Definition rec_key (r : nrec) : Z * N := (r_ts r, r_id r).
Definition distinct_keys (recs : list nrec) : Prop := NoDup (map rec_key recs).

Lemma sorted_strongly : forall l, sorted l -> StronglySorted (fun y z => rec_lt z y = false) l.
Proof. induction 1; constructor; assumption. Qed.

Lemma sorted_perm_unique : forall l l',
  sorted l -> sorted l' -> Permutation l l' -> distinct_keys l -> l = l'.
Proof.
  intros l l' Hs Hs' Hp Hd.
  apply (StronglySorted_unique (fun y z => rec_lt z y = false)); auto using sorted_strongly.
  intros a b Ha Hb L1 L2. apply (NoDup_map_inj rec_key l); auto.
  unfold rec_key. rewrite rec_lt_eq in *. f_equal; lia.
Qed.

Lemma load_perm : forall recs recs',
  Permutation recs recs' -> distinct_keys recs -> load recs = load recs'.
Proof.
  intros recs recs' Hp Hd. unfold load.
  apply sorted_perm_unique; try apply sort_sorted.
  - rewrite !sort_perm. exact Hp.
  - unfold distinct_keys. rewrite sort_perm. exact Hd.
Qed.

Fixpoint distinct_keysb (l : list nrec) : bool :=
  match l with
  | [] => true
  | r :: l' => negb (existsb (fun r' => (r_ts r' =? r_ts r) && (r_id r' =? r_id r)%N) l') && distinct_keysb l'
  end.

Lemma distinct_keysb_sound : forall recs, distinct_keysb recs = true -> distinct_keys recs.
Proof.
  unfold distinct_keys. induction recs as [|r l IH]; [constructor|].
  intros [H1 H2]%andb_prop. cbn [map]. constructor; [|apply IH; exact H2].
  intro Hin. apply in_map_iff in Hin. destruct Hin as (r' & [= E1 E2] & Hr').
  apply negb_true_iff, not_true_iff_false in H1. apply H1, existsb_exists. exists r'.
  rewrite E1, E2, Z.eqb_refl, N.eqb_refl. auto.
Qed.

Lemma filter_insert : forall p x l, sorted l ->
  filter p (insert x l) = if p x then insert x (filter p l) else filter p l.
Proof.
  intros p x l H. induction H as [|y l Hy Hs IH]; [cbn; destruct (p x); reflexivity|].
  cbn [insert]. destruct (rec_lt y x) eqn:E; cbn [filter].
  - rewrite IH. destruct (p y), (p x); try reflexivity. cbn [insert]. rewrite E. reflexivity.
  - destruct (p x); [|reflexivity]. destruct (p y); [cbn [insert]; rewrite E; reflexivity|].
    (* the first kept element of l is not below x *)
    destruct (filter p l) as [|z r] eqn:Ef; [reflexivity|]. cbn [insert].
    assert (Hz : In z (filter p l)) by (rewrite Ef; left; reflexivity). apply filter_In in Hz.
    rewrite (rec_lt_false_trans z y x); [reflexivity| |exact E].
    rewrite Forall_forall in Hy. apply Hy, Hz.
Qed.

Lemma filter_sort : forall p l, filter p (sort l) = sort (filter p l).
Proof.
  intros p l. induction l as [|x l IH]; [reflexivity|].
  unfold sort in *. cbn [fold_right filter].
  rewrite filter_insert by apply sort_sorted.
  destruct (p x); [cbn [fold_right]; rewrite IH; reflexivity|exact IH].
Qed.

Lemma take_before_incl : forall th l, incl (take_before th l) l.
Proof.
  intros th l. induction l as [|r l IH]; cbn [take_before]; [apply incl_refl|].
  destruct (r_ts r <? th); [apply incl_cons; [left; reflexivity|apply incl_tl, IH]|intros x []].
Qed.

Lemma latest_incl : forall l, incl (latest l) l.
Proof.
  induction l as [|r l IH]; cbn [latest]; [apply incl_refl|].
  destruct (has_id (r_id r) l); [apply incl_tl, IH|apply incl_cons; [left; reflexivity|apply incl_tl, IH]].
Qed.

Lemma has_id_false : forall i l, has_id i l = false -> ~ In i (map r_id l).
Proof.
  intros i l H Hin. apply in_map_iff in Hin. destruct Hin as (r & <- & Hr).
  apply not_true_iff_false in H. apply H, existsb_exists. exists r. split; [exact Hr|apply N.eqb_refl].
Qed.

Lemma latest_nodup : forall l, NoDup (map r_id (latest l)).
Proof.
  induction l as [|r l IH]; [constructor|].
  cbn [latest]. destruct (has_id (r_id r) l) eqn:E; [exact IH|].
  cbn [map]. constructor; [|exact IH].
  intro Hin. apply (has_id_false _ _ E), (incl_map r_id (latest_incl l)), Hin.
Qed.

Lemma nodes_list_nodup : forall all th b, NoDup (map r_id (nodes_list all th b)).
Proof.
  intros all th b. unfold nodes_list, node_sequence. destruct (find _ (rev all)); [|constructor].
  rewrite sort_perm. apply NoDup_map_filter, latest_nodup.
Qed.

Lemma nodes_list_incl : forall all th b x, In x (nodes_list all th b) -> In x all.
Proof.
  intros all th b x H. unfold nodes_list, node_sequence in H.
  destruct (find _ (rev all)); [|contradiction]. apply (Permutation_in _ (sort_perm _)) in H.
  apply (take_before_incl _ _ _ (latest_incl _ _ (incl_filter _ _ _ H))).
Qed.

Lemma nodes_list_accepted : forall all th,
  nodes_list all th true = filter is_accepted (nodes_list all th false).
Proof.
  intros all th. unfold nodes_list. destruct (find _ (rev all)); [|reflexivity].
  unfold node_sequence. rewrite filter_sort. cbn [negb orb].
  rewrite (filter_all (fun _ => true)) by (apply Forall_forall; reflexivity). reflexivity.
Qed.

Lemma min_nodes_ge_3 : 3 <= Consts.QMinNodes.
Proof. vm_compute. discriminate. Qed.

Lemma elect_on_spec : forall l day op,
  valid_op op = true -> Consts.QMinNodes <= Z.of_nat (length l) ->
  exists a m z r, l = a :: m ++ [z] /\ In r m /\ elect_on l day op = Ok (r_id r).
Proof.
  intros l day op Hop Hlen. unfold elect_on, middle. rewrite Hop. cbn [negb].
  destruct (Z.of_nat (length l) <? Consts.QMinNodes) eqn:E; [lia|].
  pose proof min_nodes_ge_3. destruct l as [|a l]; [cbn in Hlen; lia|].
  destruct (exists_last (l := l)) as (m & z & ->); [intros ->; cbn in Hlen; lia|].
  exists a, m, z. cbn [tl]. rewrite removelast_last.
  cbn [length] in Hlen. rewrite app_length in Hlen. cbn [length] in Hlen.
  destruct m as [|m0 m']; [cbn in Hlen; lia|]. set (mm := m0 :: m') in *.
  destruct (nth_error mm _) as [r|] eqn:En; [exists r; split; [reflexivity|]; split; [exact (nth_error_In _ _ En)|reflexivity]|].
  apply nth_error_None in En. pose proof (Z.mod_pos_bound (day + op) (Z.of_nat (length mm))). lia.
Qed.

Lemma nodup_ends : forall (a z : nrec) m r,
  NoDup (map r_id (a :: m ++ [z])) -> In r m -> r_id r <> r_id a /\ r_id r <> r_id z.
Proof.
  intros a z m r H Hin. cbn [map] in H. inversion H as [|? ? Hna Hd]; subst.
  rewrite map_app in *. apply NoDup_remove_2 in Hd. rewrite app_nil_r in Hd. apply (in_map r_id) in Hin.
  split; intros X; [apply Hna; rewrite <- X; apply in_or_app; left|apply Hd; rewrite <- X]; exact Hin.
Qed.

Lemma elect_not_ends : forall all epoch op now,
  valid_op op = true ->
  Consts.QMinNodes <= Z.of_nat (length (nodes_list all now true)) ->
  exists id, elect all epoch op now = Ok id
    /\ In id (map r_id (nodes_list all now true))
    /\ (forall a, hd_error (nodes_list all now true) = Some a -> id <> r_id a)
    /\ (forall z, hd_error (rev (nodes_list all now true)) = Some z -> id <> r_id z).
Proof.
  intros all epoch op now Hop Hlen. unfold elect.
  destruct (elect_on_spec _ (day_of epoch now) op Hop Hlen) as (a & m & z & r & Hl & Hin & He).
  exists (r_id r). split; [exact He|].
  pose proof (nodes_list_nodup all now true) as Hnd. rewrite Hl in *.
  destruct (nodup_ends a z m r Hnd Hin) as [Ha Hz].
  split; [apply in_map; right; apply in_or_app; left; exact Hin|]. split.
  - intros a' [= <-]. exact Ha.
  - intros z'. change (a :: m ++ [z]) with ((a :: m) ++ [z]). rewrite rev_app_distr. intros [= <-]. exact Hz.
Qed.

Lemma remove_scan_none : forall now l ca,
  remove_scan now None l = Ok ca -> fst ca = None /\ snd ca = filter is_accepted l.
Proof.
  intros now l. induction l as [|cn l IH]; intros ca H; cbn [remove_scan tx_matches filter] in *.
  - injection H as <-. auto.
  - destruct (now <? r_ts cn); [discriminate|]. destruct (to_int64 _ <? _); [discriminate|].
    unfold is_accepted at 1. destruct (r_state cn); [discriminate| |auto..].
    apply bind_ok in H. destruct H as (ca' & H' & [= <-]). destruct (IH _ H') as [H1 H2].
    cbn [fst snd]. rewrite H2. auto.
Qed.

Lemma check_remove_ok : forall all epoch node_id now old c,
  check_remove all epoch node_id now old = Ok c ->
  pledging_node all now = None /\ epoch <= now /\ accept_hour epoch now = true /\
  exists ca, remove_scan now old (nodes_list all now false) = Ok ca /\
    Consts.QMinNodes < Z.of_nat (length (snd ca)) /\
    match fst ca with Some c0 => Some c0 | None => hd_error (snd ca) end = Some c /\ r_id c <> node_id.
Proof.
  intros all epoch node_id now old c H. unfold check_remove in H.
  destruct (pledging_node all now); [discriminate|].
  destruct (now <? epoch) eqn:E1; [discriminate|].
  destruct (accept_hour epoch now); [|discriminate]. cbn [negb] in H.
  apply bind_ok in H. destruct H as (ca & Hs & H).
  destruct (Z.of_nat (length (snd ca)) <=? Consts.QMinNodes) eqn:E2; [discriminate|].
  destruct (match fst ca with Some c0 => Some c0 | None => hd_error (snd ca) end) as [candi|] eqn:Ec; [|discriminate].
  destruct (r_id candi =? node_id)%N eqn:E3; [discriminate|]. injection H as <-.
  repeat split; try lia. exists ca. repeat split; auto; lia.
Qed.

Lemma check_remove_head : forall all epoch node_id now c,
  check_remove all epoch node_id now None = Ok c ->
  hd_error (nodes_list all now true) = Some c /\
  Consts.QMinNodes < Z.of_nat (length (nodes_list all now true)).
Proof.
  intros all epoch node_id now c H.
  apply check_remove_ok in H. destruct H as (_ & _ & _ & ca & Hs & Hl & Hc & _).
  apply remove_scan_none in Hs. destruct Hs as [H1 H2].
  rewrite nodes_list_accepted, <- H2. rewrite H1 in Hc. auto.
Qed.

Lemma hour_of_range : forall epoch ts, 0 <= hour_of epoch ts < 24.
Proof. intros. unfold hour_of. apply Z.mod_pos_bound. lia. Qed.

Lemma accept_hour_spec : forall epoch ts,
  accept_hour epoch ts = true <->
  Consts.QAcceptTimeBegin <= hour_of epoch ts <= Consts.QAcceptTimeEnd.
Proof. intros. unfold accept_hour. cbv zeta. lia. Qed.

Lemma mint_hour_spec : forall epoch ts,
  mint_hour epoch ts = true <->
  Consts.QMintTimeBegin <= hour_of epoch ts <= Consts.QMintTimeEnd.
Proof. intros. unfold mint_hour. cbv zeta. lia. Qed.

Lemma pledge_hour_spec : forall epoch ts,
  pledge_hour epoch ts = true <->
  ~ (Consts.QMintTimeBegin <= hour_of epoch ts <= Consts.QMintTimeEnd) /\
  ~ (Consts.QAcceptTimeBegin <= hour_of epoch ts <= Consts.QAcceptTimeEnd).
Proof.
  intros. unfold pledge_hour. rewrite andb_true_iff, !negb_true_iff.
  rewrite <- !not_true_iff_false, mint_hour_spec, accept_hour_spec. tauto.
Qed.

Lemma mint_window_cases : forall epoch ts,
  let hours := (ts - epoch) / Consts.QHour in
  let inside := epoch < ts /\ 1 <= hours / 24 /\ Consts.QMintTimeBegin <= hours mod 24 <= Consts.QMintTimeEnd in
  (inside /\ mint_window_batch epoch ts = hours / 24) \/ (~ inside /\ mint_window_batch epoch ts = 0).
Proof.
  intros epoch ts. unfold mint_window_batch. cbv zeta.
  destruct (ts <=? epoch) eqn:E1; [right; lia|].
  destruct ((ts - epoch) / Consts.QHour / 24 <? 1) eqn:E2; [right; lia|].
  destruct (_ || _) eqn:E3; [right|left]; lia.
Qed.

Lemma mint_window_spec : forall epoch ts,
  mint_window_batch epoch ts <> 0 ->
  epoch < ts /\
  Consts.QMintTimeBegin <= ((ts - epoch) / Consts.QHour) mod 24 <= Consts.QMintTimeEnd /\
  mint_window_batch epoch ts = (ts - epoch) / Consts.QHour / 24 /\ 1 <= mint_window_batch epoch ts.
Proof.
  intros epoch ts H. pose proof (mint_window_cases epoch ts) as C. cbv zeta in C.
  set (hours := (ts - epoch) / Consts.QHour) in *. clearbody hours. lia.
Qed.

Lemma mint_window_complete : forall epoch ts,
  epoch < ts -> 1 <= (ts - epoch) / Consts.QHour / 24 ->
  Consts.QMintTimeBegin <= ((ts - epoch) / Consts.QHour) mod 24 <= Consts.QMintTimeEnd ->
  mint_window_batch epoch ts = (ts - epoch) / Consts.QHour / 24.
Proof.
  intros epoch ts H1 H2 H3. pose proof (mint_window_cases epoch ts) as C. cbv zeta in C.
  set (hours := (ts - epoch) / Consts.QHour) in *. clearbody hours. lia.
Qed.

Lemma accept_timing_window : forall all epoch ts chain,
  accept_timing all epoch ts chain = Ok tt ->
  epoch <= ts /\ accept_hour epoch ts = true /\
  exists p, pledging_node all ts = Some p /\ r_ts p <= ts /\
            Consts.QAcceptPeriodMinimum <= to_int64 (ts - r_ts p) <= Consts.QAcceptPeriodMaximum.
Proof.
  intros all epoch ts chain H. unfold accept_timing in H.
  destruct (pledging_node all ts) as [p|]; [|discriminate].
  destruct (match chain with Some c => negb (r_id p =? c)%N | None => false end); [discriminate|].
  destruct (ts <? epoch) eqn:E1; [discriminate|].
  destruct (accept_hour epoch ts); [|discriminate]. cbn [negb] in H.
  destruct (ts <? r_ts p) eqn:E2; [discriminate|]. cbv zeta in H.
  destruct (_ <? Consts.QAcceptPeriodMinimum) eqn:E3; [discriminate|].
  destruct (Consts.QAcceptPeriodMaximum <? _) eqn:E4; [discriminate|].
  repeat split; try lia. exists p. repeat split; lia.
Qed.
