(* Lemmas about Model/Work.v (C26: node work is credited exactly once). *)
From Coq Require Import List ZArith NArith Bool Lia ZifyBool Permutation FinFun.
Require Import Mixin.Base.Res Mixin.Model.Work Mixin.Proofs.Lists.
Import ListNotations.
Open Scope Z_scope.

Lemma memN_In x l : memN x l = true <-> In x l.
Proof.
  induction l as [|y l IH]; cbn [memN In]; [split; [discriminate | tauto]|].
  rewrite orb_true_iff, IH, N.eqb_eq. tauto.
Qed.

Lemma memN_notIn x l : memN x l = false <-> ~ In x l.
Proof. rewrite <- memN_In. symmetry. apply not_true_iff_false. Qed.

Lemma two64_pos : 0 < two64.
Proof. reflexivity. Qed.

Lemma leads_cons x C n d :
  leads (x :: C) n d = (if (fst x =? n)%N && (pair_day x =? d) then 1 else 0) + leads C n d.
Proof.
  unfold leads. cbn [filter]. destruct ((fst x =? n)%N && (pair_day x =? d)); cbn [length]; lia.
Qed.

Lemma leads_app C D n d : leads (C ++ D) n d = leads C n d + leads D n d.
Proof. unfold leads. rewrite filter_app, app_length. lia. Qed.

Lemma signs_app C D m d : signs (C ++ D) m d = signs C m d + signs D m d.
Proof. induction C as [|x C IH]; cbn [app signs]; lia. Qed.

Lemma leads_perm C D n d : Permutation C D -> leads C n d = leads D n d.
Proof. induction 1; rewrite ?leads_cons; lia. Qed.

Lemma signs_perm C D m d : Permutation C D -> signs C m d = signs D m d.
Proof. induction 1; cbn [signs]; lia. Qed.

Lemma leads_nonneg C n d : 0 <= leads C n d.
Proof. unfold leads. lia. Qed.

Lemma occ_nonneg m l : 0 <= occ m l.
Proof. induction l as [|x l IH]; cbn [occ]; [lia|]. destruct (x =? m)%N; lia. Qed.

Lemma signs_nonneg C m d : 0 <= signs C m d.
Proof.
  induction C as [|x C IH]; cbn [signs]; [lia|].
  pose proof (occ_nonneg m (s_signers (snd x))). destruct (_ && _); lia.
Qed.

Lemma occ_notin m l : memN m l = false -> occ m l = 0.
Proof.
  induction l as [|x l IH]; cbn [occ memN]; [reflexivity|].
  intros H. apply orb_false_iff in H. destruct H as [H1 H2]. rewrite H1, IH by exact H2. reflexivity.
Qed.

Lemma occ_nodup m l : NoDup l -> occ m l = if memN m l then 1 else 0.
Proof.
  induction 1 as [|x l Hx Hl IH]; cbn [occ memN]; [reflexivity|].
  destruct (N.eqb_spec x m) as [->|_]; cbn [orb]; [|lia].
  rewrite occ_notin; [reflexivity | apply memN_notIn, Hx].
Qed.

Lemma signs_mem_eq C m d :
  (forall x, In x C -> NoDup (s_signers (snd x))) -> signs C m d = signs_mem C m d.
Proof.
  unfold signs_mem. induction C as [|x C IH]; intros H; cbn [signs filter]; [reflexivity|].
  rewrite IH by (intros y Hy; apply H; right; exact Hy).
  rewrite (occ_nodup m (s_signers (snd x))) by (apply H; left; reflexivity).
  destruct (negb (fst x =? m)%N && (pair_day x =? d)); cbn [andb];
    destruct (memN m (s_signers (snd x))); cbn [length]; lia.
Qed.

Lemma wm_leader n fresh :
  (forall w, In w fresh -> occ n (s_signers w) = 1) -> wm n fresh = Z.of_nat (length fresh).
Proof.
  induction fresh as [|a fresh IH]; intros H; cbn [wm length]; [reflexivity|].
  rewrite (H a) by (left; reflexivity).
  rewrite IH by (intros w Hw; apply H; right; exact Hw). lia.
Qed.

Lemma leads_batch n fresh D n' d :
  (forall w, In w fresh -> day_of (s_ts w) = D) ->
  leads (map (pair n) fresh) n' d = if (n' =? n)%N && (d =? D) then Z.of_nat (length fresh) else 0.
Proof.
  rewrite (N.eqb_sym n'), (Z.eqb_sym d).
  induction fresh as [|a fresh IH]; intros H; cbn [map]; [destruct (_ && _); reflexivity|].
  rewrite leads_cons, IH by (intros w Hw; apply H; right; exact Hw).
  unfold pair_day. cbn [fst snd length]. rewrite (H a) by (left; reflexivity).
  destruct (_ && _); lia.
Qed.

Lemma signs_batch n fresh D m d :
  (forall w, In w fresh -> day_of (s_ts w) = D) ->
  signs (map (pair n) fresh) m d = if negb (m =? n)%N && (d =? D) then wm m fresh else 0.
Proof.
  rewrite (N.eqb_sym m), (Z.eqb_sym d).
  induction fresh as [|a fresh IH]; intros H; cbn [map signs wm]; [destruct (_ && _); reflexivity|].
  rewrite IH by (intros w Hw; apply H; right; exact Hw).
  unfold pair_day. cbn [fst snd]. rewrite (H a) by (left; reflexivity).
  destruct (_ && _); lia.
Qed.

(* what the loop over the fresh snapshots requires of them *)
Definition batch_ok (n : N) (fresh : list snap) : Prop :=
  (forall w, In w fresh -> s_ts w <> 0 /\ s_hash w <> 0%N /\ occ n (s_signers w) = 1) /\
  (forall w w', In w fresh -> In w' fresh -> day_of (s_ts w) = day_of (s_ts w')).

Definition credited (st1 : state) (n : N) (fresh : list snap) : state :=
  match fresh with
  | [] => st1
  | w0 :: _ => credit_day st1 n (day_of (s_ts w0)) fresh
  end.

Lemma credit_fresh_cons st1 n w0 fr :
  s_signers w0 <> [] ->
  credit_fresh st1 n (w0 :: fr) true =
    if forallb (snap_ok (day_of (s_ts w0))) (w0 :: fr) && (wm n (w0 :: fr) =? Z.of_nat (length (w0 :: fr)))
    then Ok (credit_day st1 n (day_of (s_ts w0)) (w0 :: fr)) else Panic.
Proof.
  intros H. unfold credit_fresh. destruct (s_signers w0); [contradiction|]. cbn [is_nil negb orb].
  destruct (forallb _ _); [destruct (_ =? _)|]; reflexivity.
Qed.

Lemma credit_fresh_ok st1 n fresh :
  batch_ok n fresh -> credit_fresh st1 n fresh true = Ok (credited st1 n fresh).
Proof.
  intros [Hwf Hday]. destruct fresh as [|w0 fr]; [reflexivity|]. rewrite credit_fresh_cons.
  - rewrite (wm_leader n (w0 :: fr)) by (intros w Hw; apply (Hwf w Hw)). rewrite Z.eqb_refl, andb_true_r.
    replace (forallb _ _) with true; [reflexivity|]. symmetry. apply forallb_forall. intros w Hw.
    destruct (Hwf w Hw) as (Hts & Hh & _). unfold snap_ok. rewrite (Hday w w0 Hw (or_introl eq_refl)). lia.
  - destruct (Hwf w0 (or_introl eq_refl)) as (_ & _ & H). intros E. rewrite E in H. discriminate H.
Qed.

Lemma credited_cp st1 n fresh : cp (credited st1 n fresh) = cp st1.
Proof. destruct fresh; reflexivity. Qed.

(* which snapshots of a submission are credited: those not in the seen set when
   the round is re-submitted, all of them when the round is new *)
Definition unseen (same : bool) (seen : list N) (snaps : list snap) : list snap :=
  if same then filter (fun w => negb (memN (s_hash w) seen)) snaps else snaps.

Definition keep (same : bool) (seen : list N) (w : snap) : bool := negb (same && memN (s_hash w) seen).

Lemma unseen_In same seen snaps w : In w (unseen same seen snaps) <-> In w snaps /\ keep same seen w = true.
Proof. destruct same; [apply filter_In | cbn; tauto]. Qed.

Lemma unseen_NoDup same seen snaps : NoDup snaps -> NoDup (unseen same seen snaps).
Proof. destruct same; [apply NoDup_filter | trivial]. Qed.

Lemma wrw_step st n r snaps c off seen :
  cp st n = (off, seen) -> 0 <= off -> off + 1 < two64 -> off <= r <= off + 1 ->
  write_round_work st n r snaps c =
    if (r =? off) && negb (forallb (fun h => memN h (hashes snaps)) seen) then Panic
    else credit_fresh (set_cp st n (r, hashes snaps)) n (unseen (r =? off) seen snaps) c.
Proof.
  intros E Hoff Hlt Hr. unfold write_round_work. rewrite E, (Z.mod_small (off + 1)) by lia.
  replace (off >? r) with false by lia. replace (r >? off + 1) with false by lia. reflexivity.
Qed.

Lemma stale_noop st n r ws c : fst (cp st n) > r -> write_round_work st n r ws c = Ok st.
Proof.
  intros H. unfold write_round_work. destruct (cp st n) as [off seen]. cbn [fst] in H.
  replace (off >? r) with true by lia. reflexivity.
Qed.

Lemma new_round_credit st n off seen w0 rest :
  cp st n = (off, seen) -> 0 <= off -> off + 1 < two64 -> s_signers w0 <> [] ->
  write_round_work st n (off + 1) (w0 :: rest) true =
    if forallb (snap_ok (day_of (s_ts w0))) (w0 :: rest) && (wm n (w0 :: rest) =? Z.of_nat (length (w0 :: rest)))
    then Ok (credit_day (set_cp st n (off + 1, hashes (w0 :: rest))) n (day_of (s_ts w0)) (w0 :: rest))
    else Panic.
Proof.
  intros Hcp Hoff Hlt Hsg. rewrite (wrw_step _ _ _ _ _ _ _ Hcp Hoff Hlt) by lia.
  replace (off + 1 =? off) with false by lia. apply credit_fresh_cons, Hsg.
Qed.

Lemma run_all_app h1 h2 st :
  run_all st (h1 ++ h2) = bind (run_all st h1) (fun st' => run_all st' h2).
Proof.
  revert st. induction h1 as [|s h1 IH]; intros st; cbn [app run_all bind]; [reflexivity|].
  destruct (apply_sub st s) as [st'| |]; cbn [bind]; [apply IH | reflexivity | reflexivity].
Qed.

Lemma run_all_run h st st' : run_all st h = Ok st' -> run st h = st'.
Proof.
  revert st. induction h as [|s h IH]; intros st H; cbn [run_all] in H; [inversion H; reflexivity|].
  unfold run. cbn [fold_left]. unfold submit at 2.
  destruct (apply_sub st s) as [st1| |]; cbn [bind] in H; try discriminate H. apply IH, H.
Qed.

Lemma cur_snoc n h s : cur n (h ++ [s]) = cur_step n (cur n h) s.
Proof. unfold cur. rewrite fold_left_app. reflexivity. Qed.

Lemma all_pairs_snoc h s : all_pairs (h ++ [s]) = all_pairs h ++ pairs_of s.
Proof. unfold all_pairs. rewrite flat_map_app. cbn [flat_map]. rewrite app_nil_r. reflexivity. Qed.

Lemma in_all_pairs n w h :
  In (n, w) (all_pairs h) <-> exists p, In p h /\ u_node p = n /\ In w (u_snaps p).
Proof.
  unfold all_pairs, pairs_of. rewrite in_flat_map. split; intros (p & Hp & H); exists p.
  - apply in_map_iff in H. destruct H as (w' & [= <- <-] & Hw). auto.
  - destruct H as [<- Hw]. split; [exact Hp | apply in_map, Hw].
Qed.

Lemma cur_in n h c : cur n h = Some c -> In c h /\ u_node c = n.
Proof.
  revert c. induction h as [|s h IH] using rev_ind; intros c; [discriminate|].
  rewrite cur_snoc, in_app_iff. unfold cur_step. destruct (_ && _) eqn:E.
  - intros [= <-]. split; [right; left; reflexivity | lia].
  - intros H. destruct (IH c H). auto.
Qed.

Lemma cur_snoc_next n h s :
  u_round s >= cur_round (u_node s) h ->
  cur n (h ++ [s]) = if (u_node s =? n)%N then Some s else cur n h.
Proof.
  intros H. rewrite cur_snoc. unfold cur_step.
  destruct (N.eqb_spec (u_node s) n) as [<-|_]; [|reflexivity].
  unfold cur_round in H. replace (_ <? _) with false by lia. reflexivity.
Qed.

Lemma cur_snoc_stale n h s : u_round s < cur_round (u_node s) h -> cur n (h ++ [s]) = cur n h.
Proof.
  intros H. rewrite cur_snoc. unfold cur_step.
  destruct (N.eqb_spec (u_node s) n) as [<-|_]; [|reflexivity].
  unfold cur_round in H. replace (_ <? _) with true by lia. reflexivity.
Qed.

Lemma follows_ge h s : follows h s -> u_round s >= cur_round (u_node s) h.
Proof. intros [[H _]|H]; lia. Qed.

(* facts about valid histories that do not mention the store; the second says that a
   submission of a node's current round lies within its current one, which is how
   keep_spec finds an earlier snapshot in the seen set *)
Definition hist_inv (h : list sub) : Prop :=
  (forall n, 0 <= cur_round n h < two64 - 1) /\
  (forall p, In p h ->
     u_round p <= cur_round (u_node p) h /\
     (u_round p = cur_round (u_node p) h -> incl (u_snaps p) (cur_snaps (u_node p) h))).

Lemma valid_hist_inv h : valid h -> hist_inv h.
Proof.
  induction 1 as [|h s Hv [I2 I3] Hwf Hfol Hcons|h s Hv [I2 I3] [Hlt _]].
  - split; [intros n; split; [apply Z.le_refl | reflexivity] | intros p []].
  - pose proof (follows_ge h s Hfol) as Hge. split.
    + intros n. unfold cur_round. rewrite (cur_snoc_next n h s Hge).
      destruct (_ =? _)%N; [exact (proj1 Hwf) | apply I2].
    + intros p Hp. unfold cur_round, cur_snaps. rewrite (cur_snoc_next _ h s Hge).
      apply in_app_or in Hp. destruct (N.eqb_spec (u_node s) (u_node p)) as [E|E]; cbn [round_of snaps_of].
      * destruct Hp as [Hp|[<-|[]]]; [|split; [lia | intros _; apply incl_refl]].
        destruct (I3 p Hp) as [Hle Hincl]. rewrite <- E in Hle, Hincl. split; [lia|]. intros Heq.
        destruct Hfol as [[Hsame Hsup]|Hnext]; [|lia]. exact (incl_tran (Hincl ltac:(lia)) Hsup).
      * destruct Hp as [Hp|[<-|[]]]; [apply I3, Hp | contradiction E; reflexivity].
  - split.
    + intros n. unfold cur_round. rewrite (cur_snoc_stale n h s Hlt). apply I2.
    + intros p Hp. unfold cur_round, cur_snaps. rewrite (cur_snoc_stale _ h s Hlt).
      apply in_app_or in Hp. destruct Hp as [Hp|[<-|[]]]; [apply I3, Hp|].
      fold (cur_round (u_node s) h). lia.
Qed.

Lemma keep_spec h s w :
  hist_inv h -> follows h s -> hash_consistent h s -> In w (u_snaps s) ->
  if keep (u_round s =? cur_round (u_node s) h) (hashes (cur_snaps (u_node s) h)) w
  then ~ In (u_node s, w) (all_pairs h) else In (u_node s, w) (all_pairs h).
Proof.
  intros [I2 I3] Hfol Hcons Hw. unfold keep. destruct (_ && _) eqn:E; cbn [negb].
  - (* the current submission of the node holds a snapshot of this hash: it is w *)
    apply andb_true_iff in E. destruct E as [_ Hm].
    apply memN_In, in_map_iff in Hm. destruct Hm as (w2 & Hh & Hw2). unfold cur_snaps in Hw2.
    destruct (cur (u_node s) h) as [c|] eqn:Ec; [|destruct Hw2]. destruct (cur_in _ _ _ Ec) as [Hc Hcn].
    destruct (Hcons c w2 w Hc Hw2 Hw Hh) as [-> _]. apply in_all_pairs. exists c. auto.
  - (* an earlier submission p holding w is of this round, hence within the current one *)
    intros Hin. apply in_all_pairs in Hin. destruct Hin as (p & Hp & Hn & Hwp).
    destruct (Hcons p w w Hp Hwp Hw eq_refl) as (_ & _ & Hrd).
    destruct (I3 p Hp) as [Hle Hincl]. rewrite Hn in Hle, Hincl. apply follows_ge in Hfol.
    apply andb_false_iff in E. destruct E as [E|E]; [lia|].
    apply memN_notIn in E. apply E, in_map, Hincl; [lia | exact Hwp].
Qed.

Lemma enumerates_snoc C h s ws :
  enumerates C h -> NoDup ws ->
  (forall w, In w ws -> In w (u_snaps s) /\ ~ In (u_node s, w) (all_pairs h)) ->
  (forall w, In w (u_snaps s) -> In w ws \/ In (u_node s, w) (all_pairs h)) ->
  enumerates (C ++ map (pair (u_node s)) ws) (h ++ [s]).
Proof.
  intros [Hnd Hen] Hws Hnew Hold. split.
  - apply NoDup_app_disjoint; [exact Hnd | apply Injective_map_NoDup; [intros a b [=]; auto | exact Hws] |].
    intros x Hx Hx'. apply in_map_iff in Hx'. destruct Hx' as (w & <- & Hw). apply (Hnew w Hw), Hen, Hx.
  - intros x. rewrite all_pairs_snoc. split; intros H; apply in_app_or in H; apply in_or_app; destruct H as [H|H].
    + left. apply Hen, H.
    + right. apply in_map_iff in H. destruct H as (w & <- & Hw). apply in_map, Hnew, Hw.
    + left. apply Hen, H.
    + apply in_map_iff in H. destruct H as (w & <- & Hw).
      destruct (Hold w Hw) as [H|H]; [right; apply in_map, H | left; apply Hen, H].
Qed.

Lemma enumerates_perm C D h : enumerates C h -> enumerates D h -> Permutation C D.
Proof.
  intros [N1 I1] [N2 I2]. apply NoDup_Permutation; [exact N1 | exact N2 |].
  intros x. rewrite I1, I2. tauto.
Qed.

Definition cp_of (n : N) (h : list sub) : Z * list N := (cur_round n h, hashes (cur_snaps n h)).

Definition counts (st : state) (C : list (N * snap)) : Prop :=
  (forall n d, lead st n d = leads C n d mod two64) /\
  (forall m d, sign st m d = signs C m d mod two64).

(* the store after a history whose distinct (proposer, snapshot) pairs are C *)
Definition state_inv (h : list sub) (st : state) (C : list (N * snap)) : Prop :=
  enumerates C h /\ (forall n, cp st n = cp_of n h) /\ counts st C.

Lemma counts_perm st C D : Permutation C D -> counts st C -> counts st D.
Proof.
  intros Hp [Hld Hsg]. split; intros n d.
  - rewrite Hld, (leads_perm C D n d Hp). reflexivity.
  - rewrite Hsg, (signs_perm C D n d Hp). reflexivity.
Qed.

Lemma credited_counts st1 n fresh C :
  batch_ok n fresh -> counts st1 C -> counts (credited st1 n fresh) (C ++ map (pair n) fresh).
Proof.
  intros [Hwf Hday] [Hld Hsg]. destruct fresh as [|w0 fr]; [rewrite app_nil_r; split; assumption|].
  assert (HD : forall w, In w (w0 :: fr) -> day_of (s_ts w) = day_of (s_ts w0))
    by (intros w Hw; apply Hday; [exact Hw | left; reflexivity]).
  split; intros k d; cbn [credited credit_day lead sign].
  - rewrite leads_app, (leads_batch n _ _ k d HD), Hld. destruct (_ && _); [|rewrite Z.add_0_r; reflexivity].
    rewrite (wm_leader n (w0 :: fr)) by (intros w Hw; apply (Hwf w Hw)). apply Zplus_mod_idemp_l.
  - rewrite signs_app, (signs_batch n _ _ k d HD), Hsg.
    destruct (negb _ && (d =? _)); cbn [andb]; [|rewrite Z.add_0_r; reflexivity].
    destruct (Z.eqb_spec (wm k (w0 :: fr)) 0) as [->|_]; cbn [negb]; [rewrite Z.add_0_r; reflexivity|].
    apply Zplus_mod_idemp_l.
Qed.

(* the snapshots of a valid next submission that its call credits *)
Definition news (h : list sub) (s : sub) : list snap :=
  unseen (u_round s =? cur_round (u_node s) h) (hashes (cur_snaps (u_node s) h)) (u_snaps s).

Lemma news_ok h s : wf_sub s -> batch_ok (u_node s) (news h s).
Proof.
  intros (_ & _ & _ & H1 & H2).
  assert (Hi : incl (news h s) (u_snaps s)) by (intros w Hw; apply unseen_In in Hw; tauto).
  split; intros; [apply H1 | apply H2]; apply Hi; assumption.
Qed.

Lemma apply_next h s st :
  hist_inv h -> (forall n, cp st n = cp_of n h) -> wf_sub s -> follows h s ->
  apply_sub st s =
  Ok (credited (set_cp st (u_node s) (u_round s, hashes (u_snaps s))) (u_node s) (news h s)).
Proof.
  intros [I2 _] Hcp Hwf Hfol. specialize (I2 (u_node s)). pose proof (news_ok h s Hwf) as Hb.
  destruct Hwf as (_ & Hcr & _). unfold apply_sub. rewrite Hcr.
  rewrite (wrw_step _ _ _ _ _ _ _ (Hcp _)) by (destruct Hfol as [[]|]; lia).
  replace (_ && _) with false; [apply credit_fresh_ok, Hb|].
  symmetry. destruct (Z.eqb_spec (u_round s) (cur_round (u_node s) h)) as [E|_]; [|reflexivity].
  apply negb_false_iff, forallb_forall. intros x Hx. apply memN_In.
  destruct Hfol as [[_ Hsup]|Hn]; [exact (incl_map s_hash Hsup x Hx) | lia].
Qed.

Lemma step_next h s st C :
  hist_inv h -> state_inv h st C -> wf_sub s -> follows h s -> hash_consistent h s ->
  exists st', apply_sub st s = Ok st' /\ state_inv (h ++ [s]) st' (C ++ map (pair (u_node s)) (news h s)).
Proof.
  intros Hinv (Hen & Hcp & Hc) Hwf Hfol Hcons. pose proof (news_ok h s Hwf) as Hb.
  eexists. split; [exact (apply_next h s st Hinv Hcp Hwf Hfol)|]. split; [|split].
  - pose proof (fun w Hw => keep_spec h s w Hinv Hfol Hcons Hw) as Hkeep. destruct Hwf as (_ & _ & Hnodup & _).
    apply enumerates_snoc; [exact Hen | apply unseen_NoDup, (NoDup_map_inv _ _ Hnodup) | |]; intros w Hw.
    + apply unseen_In in Hw. destruct Hw as [Hw Hk]. specialize (Hkeep w Hw). rewrite Hk in Hkeep. tauto.
    + specialize (Hkeep w Hw). destruct (keep _ _ w) eqn:Hk; [left; apply unseen_In; tauto | right; exact Hkeep].
  - intros n'. rewrite credited_cp. cbn [set_cp cp]. unfold cp_of, cur_round, cur_snaps.
    rewrite (cur_snoc_next n' h s (follows_ge _ _ Hfol)), (N.eqb_sym n').
    destruct (_ =? _)%N; [reflexivity | apply Hcp].
  - exact (credited_counts (set_cp st _ _) _ _ C Hb Hc).
Qed.

Lemma step_stale h s st C :
  state_inv h st C -> stale h s -> apply_sub st s = Ok st /\ state_inv (h ++ [s]) st C.
Proof.
  intros (Hen & Hcp & Hc) [Hlt Hold]. split; [|split; [|split; [|exact Hc]]].
  - apply stale_noop. rewrite Hcp. cbn [cp_of fst]. lia.
  - rewrite <- (app_nil_r C). apply (enumerates_snoc C h s []); [exact Hen | constructor | intros w [] | auto].
  - intros n. rewrite Hcp. unfold cp_of, cur_round, cur_snaps. rewrite (cur_snoc_stale n h s Hlt). reflexivity.
Qed.

Theorem main_inv h : valid h -> exists st C, run_all empty_state h = Ok st /\ state_inv h st C.
Proof.
  induction 1 as [|h s Hv (st & C & Hrun & HI) Hwf Hfol Hcons|h s Hv (st & C & Hrun & HI) Hst].
  - exists empty_state, []. repeat split; [constructor | intros [] | intros []].
  - destruct (step_next h s st C (valid_hist_inv h Hv) HI Hwf Hfol Hcons) as (st' & Hs & HI').
    exists st'. eexists. rewrite run_all_app, Hrun. cbn [bind run_all]. rewrite Hs. split; [reflexivity | exact HI'].
  - destruct (step_stale h s st C HI Hst) as [Hs HI'].
    exists st, C. rewrite run_all_app, Hrun. cbn [bind run_all]. rewrite Hs. auto.
Qed.

(* A checker of [valid], to show a concrete history valid by evaluation: [validb h rest]
   accepts [rest] as a continuation of the history [h]. *)

Definition snap_eq_dec (w w' : snap) : {w = w'} + {w <> w'}.
Proof. decide equality; [apply (list_eq_dec N.eq_dec) | apply Z.eq_dec | apply N.eq_dec]. Defined.

Definition memS (w : snap) (l : list snap) : bool := if in_dec snap_eq_dec w l then true else false.

Lemma memS_In w l : memS w l = true -> In w l.
Proof. unfold memS. destruct (in_dec snap_eq_dec w l); [trivial | discriminate]. Qed.

Fixpoint nodupb (l : list N) : bool :=
  match l with [] => true | x :: l' => negb (memN x l') && nodupb l' end.

Lemma nodupb_NoDup l : nodupb l = true -> NoDup l.
Proof.
  induction l as [|x l IH]; cbn [nodupb]; [constructor|]. rewrite andb_true_iff, negb_true_iff, memN_notIn.
  intros [Hx Hl]. constructor; auto.
Qed.

Definition wf_subb (s : sub) : bool :=
  (0 <=? u_round s) && (u_round s <? two64 - 1) && u_credit s && nodupb (hashes (u_snaps s)) &&
  forallb (fun w => negb (s_ts w =? 0) && negb (s_hash w =? 0)%N && (occ (u_node s) (s_signers w) =? 1) &&
                    forallb (fun w' => day_of (s_ts w) =? day_of (s_ts w')) (u_snaps s)) (u_snaps s).

Lemma wf_subb_wf s : wf_subb s = true -> wf_sub s.
Proof.
  unfold wf_subb.
  intros [[[[H1%Z.leb_le H2%Z.ltb_lt]%andb_prop H3]%andb_prop H4%nodupb_NoDup]%andb_prop H5]%andb_prop.
  rewrite forallb_forall in H5. split; [exact (conj H1 H2)|]. split; [exact H3|]. split; [exact H4|]. split.
  - intros w [[[Ht%negb_true_iff%Z.eqb_neq Hh%negb_true_iff%N.eqb_neq]%andb_prop Ho%Z.eqb_eq]%andb_prop _]%H5%andb_prop.
    auto.
  - intros w w' [_ Hd]%H5%andb_prop Hw'. rewrite forallb_forall in Hd. apply Z.eqb_eq, Hd, Hw'.
Qed.

Definition followsb (h : list sub) (s : sub) : bool :=
  (u_round s =? cur_round (u_node s) h) && forallb (fun w => memS w (u_snaps s)) (cur_snaps (u_node s) h)
  || (u_round s =? cur_round (u_node s) h + 1).

Lemma followsb_follows h s : followsb h s = true -> follows h s.
Proof.
  unfold followsb. intros [[H1%Z.eqb_eq H2]%andb_prop|H%Z.eqb_eq]%orb_prop; [left | right; exact H].
  rewrite forallb_forall in H2. split; [exact H1|]. intros w Hw. apply memS_In, H2, Hw.
Qed.

Definition hash_consistentb (h : list sub) (s : sub) : bool :=
  forallb (fun p => forallb (fun w => forallb (fun w' =>
    negb (s_hash w =? s_hash w')%N ||
    (if snap_eq_dec w w' then true else false) && (u_node p =? u_node s)%N && (u_round p =? u_round s))
    (u_snaps s)) (u_snaps p)) h.

Lemma hash_consistentb_ok h s : hash_consistentb h s = true -> hash_consistent h s.
Proof.
  intros H p w w' Hp Hw Hw' Hh. unfold hash_consistentb in H.
  rewrite forallb_forall in H. specialize (H p Hp).
  rewrite forallb_forall in H. specialize (H w Hw).
  rewrite forallb_forall in H. specialize (H w' Hw').
  rewrite Hh, N.eqb_refl in H. destruct (snap_eq_dec w w') as [E|_]; [|discriminate H].
  apply andb_prop in H as [Hn%N.eqb_eq Hr%Z.eqb_eq]. auto.
Qed.

Definition staleb (h : list sub) (s : sub) : bool :=
  (u_round s <? cur_round (u_node s) h) &&
  forallb (fun w => existsb (fun p => (u_node p =? u_node s)%N && memS w (u_snaps p)) h) (u_snaps s).

Lemma staleb_stale h s : staleb h s = true -> stale h s.
Proof.
  unfold staleb. intros [H1%Z.ltb_lt H2]%andb_prop. rewrite forallb_forall in H2. split; [exact H1|].
  intros w (p & Hp & [Hn%N.eqb_eq Hm%memS_In]%andb_prop)%H2%existsb_exists.
  apply in_all_pairs. exists p. auto.
Qed.

Fixpoint validb (h rest : list sub) : bool :=
  match rest with
  | [] => true
  | s :: r => (wf_subb s && followsb h s && hash_consistentb h s || staleb h s) && validb (h ++ [s]) r
  end.

Lemma validb_valid rest : forall h, valid h -> validb h rest = true -> valid (h ++ rest).
Proof.
  induction rest as [|s r IH]; intros h Hv; cbn [validb]; [rewrite app_nil_r; trivial|].
  intros [Hs Hr]%andb_prop. rewrite (app_assoc h [s] r : h ++ s :: r = (h ++ [s]) ++ r). apply IH; [|exact Hr].
  apply orb_prop in Hs as [[[H1 H2]%andb_prop H3]%andb_prop|H].
  - apply valid_next; [exact Hv | apply wf_subb_wf, H1 | apply followsb_follows, H2 | apply hash_consistentb_ok, H3].
  - apply valid_stale; [exact Hv | apply staleb_stale, H].
Qed.
