(* Facts about plain lists (prefixes, filters, NoDup, sortedness, folds) that the
   standard library lacks; nothing here mentions a model. *)
From Coq Require Import List Arith Lia Permutation Sorted.
Import ListNotations.

Lemma firstn_exact {A} (l1 l2 : list A) n : length l1 = n -> firstn n (l1 ++ l2) = l1.
Proof. intros <-. rewrite firstn_app, Nat.sub_diag, firstn_all. apply app_nil_r. Qed.

Lemma skipn_exact {A} (l1 l2 : list A) n : length l1 = n -> skipn n (l1 ++ l2) = l2.
Proof. intros <-. rewrite skipn_app, Nat.sub_diag, skipn_all. reflexivity. Qed.

Lemma app_inj_len {A} (a a' b b' : list A) :
  length a = length a' -> a ++ b = a' ++ b' -> a = a' /\ b = b'.
Proof.
  intros Hl H. split.
  - rewrite <- (firstn_exact a b _ eq_refl), H. apply firstn_exact. auto.
  - rewrite <- (skipn_exact a b _ eq_refl), H. apply skipn_exact. auto.
Qed.

Lemma NoDup_snoc {A} (l : list A) x : NoDup l -> ~ In x l -> NoDup (l ++ [x]).
Proof.
  intros Hl Hx. apply (NoDup_Add (Add_app x l [])). rewrite app_nil_r. auto.
Qed.

Lemma NoDup_map_inj {A B} (f : A -> B) l a b :
  NoDup (map f l) -> In a l -> In b l -> f a = f b -> a = b.
Proof.
  induction l as [|x l IH]; cbn; intros Hn Ha Hb E; [contradiction|].
  inversion Hn as [|? ? Hx Hn']; subst.
  destruct Ha as [->|Ha], Hb as [->|Hb]; auto.
  - exfalso. apply Hx. rewrite E. apply in_map. exact Hb.
  - exfalso. apply Hx. rewrite <- E. apply in_map. exact Ha.
Qed.

Lemma filter_all {A} (f : A -> bool) l : Forall (fun x => f x = true) l -> filter f l = l.
Proof. induction 1 as [|x l Hx _ IH]; cbn [filter]; [reflexivity|]. rewrite Hx, IH. reflexivity. Qed.

Lemma filter_none {A} (f : A -> bool) l : Forall (fun x => f x = false) l -> filter f l = [].
Proof. induction 1 as [|x l Hx _ IH]; cbn [filter]; [|rewrite Hx]; auto. Qed.

Lemma existsb_none {A} (f : A -> bool) l : Forall (fun x => f x = false) l -> existsb f l = false.
Proof. induction 1 as [|x l Hx _ IH]; cbn [existsb]; [reflexivity|]. rewrite Hx, IH. reflexivity. Qed.

Lemma existsb_eqb_In {A} (eqb : A -> A -> bool) x l :
  (forall a b, eqb a b = true <-> a = b) -> existsb (eqb x) l = true <-> In x l.
Proof.
  intros Heq. rewrite existsb_exists. split.
  - intros (y & Hin & ->%Heq). exact Hin.
  - intros Hin. exists x. split; [exact Hin | apply Heq; reflexivity].
Qed.

Lemma NoDup_app_disjoint {A} (l l' : list A) :
  NoDup l -> NoDup l' -> (forall x, In x l -> ~ In x l') -> NoDup (l ++ l').
Proof.
  intros Hl Hl' Hd. induction Hl as [|x l Hx Hl IH]; cbn [app]; [exact Hl'|].
  constructor.
  - rewrite in_app_iff. intros [H|H]; [exact (Hx H) | exact (Hd x (or_introl eq_refl) H)].
  - apply IH. intros y Hy. apply Hd. right. exact Hy.
Qed.

Lemma fold_left_inv {A B} (P : A -> Prop) (f : A -> B -> A) l :
  (forall a b, In b l -> P a -> P (f a b)) -> forall a, P a -> P (fold_left f l a).
Proof.
  induction l as [|b l IH]; cbn; intros Hf a Ha; [exact Ha|].
  apply IH; [intros; apply Hf; auto|apply Hf; auto].
Qed.

Lemma Permutation_filter {A} (f : A -> bool) l l' :
  Permutation l l' -> Permutation (filter f l) (filter f l').
Proof.
  induction 1 as [|x l l' _ IH|x y l|l l' l'' _ IH1 _ IH2]; cbn [filter].
  - constructor.
  - destruct (f x); [apply perm_skip|]; exact IH.
  - destruct (f x), (f y); try apply Permutation_refl. apply perm_swap.
  - eapply perm_trans; eassumption.
Qed.

Lemma NoDup_map_filter {A B} (f : A -> B) (g : A -> bool) l :
  NoDup (map f l) -> NoDup (map f (filter g l)).
Proof.
  induction l as [|x l IH]; cbn [filter map]; intros H; [constructor|].
  inversion H as [|? ? Hx Hl]; subst. destruct (g x); [|auto].
  cbn [map]. constructor; [|auto].
  rewrite in_map_iff in *. intros (y & E & Hy). apply filter_In in Hy.
  apply Hx. exists y. tauto.
Qed.

(* Two sorted lists with the same elements are equal, provided the order is
   antisymmetric on those elements: both heads are minimal, hence equal. *)
Lemma StronglySorted_unique {A} (le : A -> A -> Prop) l1 l2 :
  (forall a b, In a l1 -> In b l1 -> le a b -> le b a -> a = b) ->
  Permutation l1 l2 -> StronglySorted le l1 -> StronglySorted le l2 -> l1 = l2.
Proof.
  revert l2. induction l1 as [|a l1 IH]; intros l2 Hanti Hp S1 S2.
  - apply Permutation_nil in Hp. subst. reflexivity.
  - destruct l2 as [|b l2]; [apply Permutation_sym, Permutation_nil in Hp; discriminate|].
    apply StronglySorted_inv in S1, S2. destruct S1 as [S1 F1], S2 as [S2 F2].
    rewrite Forall_forall in F1, F2.
    assert (Ia : In a (b :: l2)) by (apply (Permutation_in _ Hp); left; reflexivity).
    assert (Ib : In b (a :: l1)) by (apply (Permutation_in _ (Permutation_sym Hp)); left; reflexivity).
    assert (E : a = b).
    { destruct Ia as [Ia|Ia]; [auto|]. destruct Ib as [Ib|Ib]; [auto|].
      apply Hanti; [left; reflexivity|right; exact Ib|apply F1; exact Ib|apply F2; exact Ia]. }
    subst b. f_equal. apply IH; [|apply (Permutation_cons_inv Hp)|exact S1|exact S2].
    intros x y Hx Hy. apply Hanti; right; assumption.
Qed.

Lemma NoDup_app_inv : forall (A : Type) (a b : list A),
  NoDup (a ++ b) -> NoDup a /\ NoDup b /\ (forall x, In x a -> ~ In x b).
Proof.
  induction a as [|y a IH]; intros b; cbn [app].
  - intros H. repeat split; [constructor | exact H | intros x []].
  - rewrite !NoDup_cons_iff, in_app_iff. intros [Hy H]. destruct (IH b H) as (Ha & Hb & Hd).
    repeat split; try tauto. intros x [<-|Hx] Hxb; [tauto | exact (Hd x Hx Hxb)].
Qed.

Lemma NoDup_map_nth_error_inj : forall (A B : Type) (f : A -> B) l a b x y,
  NoDup (map f l) -> nth_error l a = Some x -> nth_error l b = Some y -> f x = f y -> a = b.
Proof.
  intros A B f l a b x y Hnd Ha Hb E. apply (proj1 (NoDup_nth_error _) Hnd).
  - apply nth_error_Some. rewrite nth_error_map, Ha. discriminate.
  - rewrite !nth_error_map, Ha, Hb. exact (f_equal Some E).
Qed.

Lemma combine_map_self : forall {A B} (f : A -> B) xs, combine xs (map f xs) = map (fun x => (x, f x)) xs.
Proof. intros A B f xs. induction xs; cbn; [reflexivity | rewrite IHxs; reflexivity]. Qed.

Lemma nth_skipn_middle : forall {A} (a : list A) x b n, length a = n ->
  nth_error (a ++ x :: b) n = Some x /\ skipn (S n) (a ++ x :: b) = b.
Proof.
  intros A a x b n <-. split; [rewrite nth_error_app2, Nat.sub_diag by lia; reflexivity|].
  change (a ++ x :: b) with (a ++ [x] ++ b). rewrite app_assoc. apply skipn_exact.
  rewrite app_length. cbn. lia.
Qed.

Lemma filter_split_length : forall {A} (p : A -> bool) l,
  (length l = length (filter p l) + length (filter (fun x => negb (p x)) l))%nat.
Proof.
  intros A p l. induction l as [|x l IH]; [reflexivity|].
  cbn [filter]. destruct (p x); cbn [negb length]; lia.
Qed.

Lemma filter_length_impl : forall {A} (f g : A -> bool) l,
  (forall x, In x l -> f x = true -> g x = true) ->
  (length (filter f l) <= length (filter g l))%nat.
Proof.
  intros A f g l. induction l as [|x l IH]; intro H; cbn [filter]; [lia|].
  specialize (IH (fun y Hy => H y (or_intror Hy))).
  destruct (f x) eqn:Ef; [rewrite (H x (or_introl eq_refl) Ef)|destruct (g x)]; cbn [length]; lia.
Qed.

Lemma skipn_skipn {A} (a b : nat) (l : list A) : skipn a (skipn b l) = skipn (b + a) l.
Proof.
  revert l; induction b as [|b IH]; intro l; [reflexivity|].
  destruct l as [|h t]; simpl; [apply skipn_nil|]. apply IH.
Qed.

Lemma map_repeat : forall {A B} (f : A -> B) x k, map f (repeat x k) = repeat (f x) k.
Proof. induction k as [|k IH]; cbn [repeat map]; [reflexivity|now rewrite IH]. Qed.

Lemma forallb_impl {A} (p q : A -> bool) l :
  (forall x, p x = true -> q x = true) -> forallb p l = true -> forallb q l = true.
Proof. rewrite !forallb_forall. auto. Qed.

Lemma Forall_forallb {A} (f : A -> bool) l : Forall (fun x => f x = true) l -> forallb f l = true.
Proof. intros H. apply forallb_forall, Forall_forall, H. Qed.

Lemma StronglySorted_map {A B} (f : A -> B) (R : A -> A -> Prop) (R' : B -> B -> Prop) l :
  (forall a b, R a b -> R' (f a) (f b)) -> StronglySorted R l -> StronglySorted R' (map f l).
Proof.
  intros Hf HS. induction HS as [|a l HS IH F]; cbn [map]; constructor; [exact IH|].
  apply Forall_map. revert F. apply Forall_impl, Hf.
Qed.

Lemma last_map {A B} (f : A -> B) l d : last (map f l) (f d) = f (last l d).
Proof. induction l as [|a [|b l] IH]; [reflexivity | reflexivity | exact IH]. Qed.

Lemma last_in {A} (l : list A) d : l <> [] -> In (last l d) l.
Proof.
  induction l as [|a [|b l] IH]; [contradiction | left; reflexivity | right; apply IH; discriminate].
Qed.

Lemma ss_app_inv {A} (R : A -> A -> Prop) (a b : list A) :
  StronglySorted R (a ++ b) -> StronglySorted R a /\ StronglySorted R b.
Proof.
  induction a as [|x a IH]; cbn; intros H.
  - split; [constructor|exact H].
  - inversion H as [|? ? Hs Hf]; subst. destruct (IH Hs) as [Ha Hb]. split; [|exact Hb].
    constructor; [exact Ha|]. apply Forall_app in Hf. tauto.
Qed.

Lemma fold_left_establish {A B} (f : A -> B -> A) (I Q : A -> Prop) l b :
  In b l -> (forall a b', I a -> I (f a b')) -> (forall a, I a -> Q (f a b)) ->
  (forall a b', Q a -> Q (f a b')) -> forall a, I a -> Q (fold_left f l a).
Proof.
  intros Hin HI Hb HQ. induction l as [|x l IH]; [destruct Hin|]. intros a Ha. cbn [fold_left].
  destruct Hin as [->|Hin]; [|apply IH; auto]. apply fold_left_inv; auto.
Qed.
