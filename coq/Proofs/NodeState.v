(* Lemmas about Model/NodeState.v: the lifecycle invariant of the durable
   membership history under strictly increasing operation timestamps. *)
From Coq Require Import List ZArith NArith Bool Lia ZifyBool.
Require Import Mixin.Base.Res Mixin.Gen.Consts Mixin.Model.NodeState Mixin.Proofs.Res Mixin.Proofs.Lists.
Import ListNotations.
Open Scope N_scope.

Definition recs_of (s : N) (h : list nrec) : list nrec :=
  filter (fun r => n_signer r =? s) h.

Inductive lifecycle : list nstate -> Prop :=
| lc_p : lifecycle [Pledging]
| lc_pa : lifecycle [Pledging; Accepted]
| lc_pc : lifecycle [Pledging; Cancelled]
| lc_par : lifecycle [Pledging; Accepted; Removed]
| lc_a : lifecycle [Accepted]                  (* a genesis node *)
| lc_ar : lifecycle [Accepted; Removed].

(* the records of signer s are one node: one lifecycle, one payee *)
Definition node_ok (h : list nrec) (s : N) : Prop :=
  recs_of s h = [] \/
  (lifecycle (map n_state (recs_of s h)) /\ exists p, Forall (fun r => n_payee r = p) (recs_of s h)).

Definition is_pledging (h : list nrec) (s : N) : Prop :=
  exists r, current h s = Some r /\ n_state r = Pledging.

(* when the property allows an operation to be recorded *)
Definition guard (h : list nrec) (o : op) : Prop :=
  match o_kind o with
  | OPledge =>
      (forall s, ~ is_pledging h s) /\ recs_of (o_signer o) h = [] /\
      (forall s r, current h s = Some r -> n_tx r <> o_tx o)
  | OAccept | OCancel =>
      exists r, current h (o_signer o) = Some r /\ n_state r = Pledging /\ n_payee r = o_payee o
  | ORemove =>
      (forall s, ~ is_pledging h s) /\
      exists r, current h (o_signer o) = Some r /\ n_state r = Accepted /\ n_payee r = o_payee o
  end.

(* inv_pledging_last carries the proof: a pledging node is always the newest
   record, which is why accept, cancel and remove may inspect the last record only *)
Record Inv (h : list nrec) : Prop := mk_Inv {
  inv_order : order_ok h = true;
  inv_pos : Forall (fun r => 1 <= n_ts r) h;
  inv_nodes : forall s, node_ok h s;
  inv_pledging_last : forall s r, current h s = Some r -> n_state r = Pledging -> last_opt h = Some r
}.

Definition max_period : N := N.max pledge_period accept_period.

(* the schedule precondition: after the genesis nodes every operation carries a
   timestamp above all earlier ones, and below 2^64 - 12 h (both periods are
   43200000000000 ns) so that the uint64 sum in offset_of does not wrap *)
Fixpoint increasing_from (t : N) (ops : list op) : Prop :=
  match ops with
  | [] => True
  | o :: r => o_genesis o = false /\ t < o_ts o /\ o_ts o + max_period < two64 /\ increasing_from (o_ts o) r
  end.

Definition genesis_op (t0 : N) (o : op) : Prop :=
  o_kind o = OAccept /\ o_genesis o = true /\ 1 <= o_ts o /\ o_ts o <= t0.

Definition genesis_ok (t0 : N) (gs : list op) : Prop :=
  Forall (genesis_op t0) gs /\ NoDup (map o_signer gs).

Lemma last_opt_app {A} (l : list A) (a : A) : last_opt (l ++ [a]) = Some a.
Proof. induction l as [|x l IH]; cbn; [reflexivity|]. rewrite IH. reflexivity. Qed.

Lemma last_opt_none {A} (l : list A) : last_opt l = None -> l = [].
Proof. destruct l as [|x l]; [reflexivity|]. cbn. destruct (last_opt l); discriminate. Qed.

Lemma last_opt_split {A} (l : list A) (a : A) : last_opt l = Some a -> exists l', l = l' ++ [a].
Proof.
  induction l as [|x l IH]; cbn; [discriminate|].
  destruct (last_opt l) as [y|] eqn:E; intros [= <-].
  - destruct (IH eq_refl) as [l' ->]. exists (x :: l'). reflexivity.
  - rewrite (last_opt_none _ E). exists []. reflexivity.
Qed.

Lemma last_opt_in {A} (l : list A) (a : A) : last_opt l = Some a -> In a l.
Proof. intros H. destruct (last_opt_split _ _ H) as [l' ->]. apply in_or_app. right. left. reflexivity. Qed.

Lemma last_opt_map {A B} (f : A -> B) (l : list A) (a : A) :
  last_opt l = Some a -> last_opt (map f l) = Some (f a).
Proof. intros H. destruct (last_opt_split _ _ H) as [l' ->]. rewrite map_app. apply last_opt_app. Qed.

Lemma current_none_iff h s : current h s = None <-> existsb (fun x => n_signer x =? s) h = false.
Proof.
  induction h as [|r t IH]; cbn; [tauto|]. rewrite orb_false_iff, <- IH.
  destruct (current t s); [|destruct (n_signer r =? s)]; intuition discriminate.
Qed.

Lemma current_some h s r : current h s = Some r -> n_signer r = s /\ In r h.
Proof.
  induction h as [|x t IH]; cbn; [discriminate|].
  destruct (current t s) as [y|].
  - intros [= <-]. destruct (IH eq_refl). auto.
  - destruct (N.eqb_spec (n_signer x) s); [intros [= <-]; auto|discriminate].
Qed.

Lemma current_app h r s : current (h ++ [r]) s = if n_signer r =? s then Some r else current h s.
Proof. induction h as [|x t IH]; cbn; [|rewrite IH; destruct (n_signer r =? s)]; reflexivity. Qed.

Lemma current_last_recs h s : current h s = last_opt (recs_of s h).
Proof.
  induction h as [|x t IH]; cbn; [reflexivity|]. unfold recs_of in *. cbn.
  rewrite IH. destruct (n_signer x =? s); cbn; [reflexivity|].
  destruct (last_opt (filter (fun r => n_signer r =? s) t)); reflexivity.
Qed.

Lemma recs_of_app s h r : recs_of s (h ++ [r]) = recs_of s h ++ (if n_signer r =? s then [r] else []).
Proof. unfold recs_of. rewrite filter_app. cbn. destruct (n_signer r =? s); reflexivity. Qed.

Lemma current_none_recs h s : current h s = None <-> recs_of s h = [].
Proof. rewrite current_last_recs. split; [apply last_opt_none|]. intros ->. reflexivity. Qed.

Lemma last_current h l : last_opt h = Some l -> current h (n_signer l) = Some l.
Proof.
  intros H. destruct (last_opt_split _ _ H) as [h' ->]. rewrite current_app, N.eqb_refl. reflexivity.
Qed.

Lemma in_latest_iff h x : In x (latest h) <-> current h (n_signer x) = Some x.
Proof.
  induction h as [|r t IH]; cbn; [split; [tauto|discriminate]|].
  pose proof (current_none_iff t (n_signer r)) as Hr.
  destruct (existsb (fun y => n_signer y =? n_signer r) t); cbn [In]; rewrite IH; clear IH;
    destruct (current t (n_signer x)) as [y|] eqn:Ec.
  (* r is or is not superseded in t; the signer of x has or has not a record in t *)
  - (* superseded, has *) reflexivity.
  - (* superseded, has not *) destruct (N.eqb_spec (n_signer r) (n_signer x)) as [E|]; [|split; discriminate].
    rewrite E, Ec in Hr. destruct Hr as [Hr _]. discriminate (Hr eq_refl).
  - (* newest, has *) split; [intros [<-|H]; [|exact H]|auto]. rewrite (proj2 Hr eq_refl) in Ec. discriminate Ec.
  - (* newest, has not *) split; [intros [<-|H]; [rewrite N.eqb_refl; reflexivity|discriminate H]|].
    destruct (n_signer r =? n_signer x); [intros [= ->]; left; reflexivity|discriminate].
Qed.

Lemma latest_nodup h : NoDup (map n_signer (latest h)).
Proof.
  induction h as [|r t IH]; cbn; [constructor|].
  destruct (existsb (fun y => n_signer y =? n_signer r) t) eqn:Ex; [exact IH|].
  cbn. constructor; [|exact IH]. intros Hin. apply in_map_iff in Hin. destruct Hin as (y & Hy & Hin).
  apply in_latest_iff, current_some in Hin. rewrite <- not_true_iff_false in Ex. apply Ex.
  apply existsb_exists. exists y. split; [apply Hin|]. apply N.eqb_eq, Hy.
Qed.

Lemma settled_false r : settled r = false <-> n_state r = Pledging.
Proof. unfold settled. destruct (n_state r); split; congruence. Qed.

Lemma all_settled_iff h : forallb settled (latest h) = true <-> forall s, ~ is_pledging h s.
Proof.
  rewrite forallb_forall. split.
  - intros H s (r & Hc & Hp). destruct (current_some _ _ _ Hc) as [<- _].
    apply in_latest_iff, H in Hc. apply settled_false in Hp. congruence.
  - intros H x Hx. destruct (settled x) eqn:E; [reflexivity|]. exfalso.
    apply settled_false in E. apply in_latest_iff in Hx. apply (H (n_signer x)). exists x. tauto.
Qed.

Lemma pledge_clash_iff h s tx :
  existsb (fun n => (n_signer n =? s) || (n_tx n =? tx)) (latest h) = false <->
  recs_of s h = [] /\ (forall s' r, current h s' = Some r -> n_tx r <> tx).
Proof.
  rewrite <- current_none_recs, <- not_true_iff_false, existsb_exists. split.
  - intros H. split.
    + destruct (current h s) as [r|] eqn:E; [exfalso|reflexivity]. apply H. exists r.
      destruct (current_some _ _ _ E) as [<- _]. split; [apply in_latest_iff, E|]. rewrite N.eqb_refl. reflexivity.
    + intros s' r Hc Heq. apply H. exists r. destruct (current_some _ _ _ Hc) as [<- _].
      split; [apply in_latest_iff, Hc|]. lia.
  - intros [H1 H2] (x & Hx & Hb). apply in_latest_iff in Hx.
    destruct (N.eqb_spec (n_signer x) s) as [<-|_]; [congruence|]. apply (H2 _ _ Hx). lia.
Qed.

Definition fresh_ts (h : list nrec) (ts : N) : Prop := Forall (fun r => n_ts r < ts) h.

Lemma put_append r h : fresh_ts h (n_ts r) -> put r h = h ++ [r].
Proof.
  induction 1 as [|x t Hx _ IH]; cbn; [reflexivity|].
  unfold key_cmp. rewrite (proj2 (N.compare_gt_iff _ _) Hx), IH. reflexivity.
Qed.

Lemma order_ok_app h r : order_ok h = true -> Forall (fun x => n_ts x <= n_ts r) h -> order_ok (h ++ [r]) = true.
Proof.
  induction h as [|a [|b t] IH]; intros Ho Hf; [reflexivity| |]; inversion_clear Hf as [|? ? Ha Ht]; cbn in *.
  - rewrite andb_true_r. lia.
  - apply andb_prop in Ho as [-> Ho]. exact (IH Ho Ht).
Qed.

Lemma scan_full h th :
  order_ok h = true -> Forall (fun r => 1 <= n_ts r) h -> Forall (fun r => n_ts r <= th) h ->
  scan h th = Ok h.
Proof.
  intros Ho Hp Hb. unfold scan.
  rewrite existsb_none by (eapply Forall_impl; [|exact Hp]; cbn; lia).
  rewrite filter_all by (eapply Forall_impl; [|exact Hb]; cbn; lia).
  rewrite Ho. reflexivity.
Qed.

Lemma apply_put h o h' : apply h o = Ok h' -> h' = put (rec_of o) h.
Proof.
  unfold apply, rec_of, write_node_pledge, write_node_accept, write_node_cancel, write_node_remove.
  intros H. destruct (o_kind o); repeat res_step H; reflexivity.
Qed.

Lemma lifecycle_next l a b :
  lifecycle l -> last_opt l = Some a ->
  a = Pledging /\ (b = Accepted \/ b = Cancelled) \/ a = Accepted /\ b = Removed ->
  lifecycle (l ++ [b]).
Proof.
  intros H E T. inversion H; subst; cbn in E; injection E as <-;
    destruct T as [[? [-> | ->]]|[? ->]]; try discriminate; constructor.
Qed.

Lemma node_ok_other h r s : n_signer r <> s -> node_ok h s -> node_ok (h ++ [r]) s.
Proof.
  intros Hne H. unfold node_ok in *. rewrite recs_of_app.
  apply N.eqb_neq in Hne. rewrite Hne, app_nil_r. exact H.
Qed.

Lemma node_ok_next h r x :
  node_ok h (n_signer r) -> current h (n_signer r) = Some x -> n_payee x = n_payee r ->
  n_state x = Pledging /\ (n_state r = Accepted \/ n_state r = Cancelled) \/
  n_state x = Accepted /\ n_state r = Removed ->
  node_ok (h ++ [r]) (n_signer r).
Proof.
  intros Hn Hc Hp Ht. unfold node_ok in *. rewrite recs_of_app, N.eqb_refl.
  rewrite current_last_recs in Hc. right.
  destruct Hn as [Hn|[Hlc [p Hpay]]]; [rewrite Hn in Hc; discriminate|].
  split.
  - rewrite map_app. apply (lifecycle_next _ (n_state x)); [exact Hlc|apply last_opt_map; exact Hc|exact Ht].
  - exists p. apply Forall_app. split; [exact Hpay|]. constructor; [|constructor].
    apply last_opt_in in Hc. rewrite Forall_forall in Hpay. rewrite <- Hp. apply Hpay. exact Hc.
Qed.

Lemma pledging_unique h s1 s2 : Inv h -> is_pledging h s1 -> is_pledging h s2 -> s1 = s2.
Proof.
  intros HI (r1 & H1 & P1) (r2 & H2 & P2).
  pose proof (inv_pledging_last _ HI _ _ H1 P1) as L1.
  rewrite (inv_pledging_last _ HI _ _ H2 P2) in L1. injection L1 as <-.
  destruct (current_some _ _ _ H1) as [<- _]. destruct (current_some _ _ _ H2) as [<- _]. reflexivity.
Qed.

Lemma inv_append h r :
  Inv h -> fresh_ts h (n_ts r) -> 1 <= n_ts r ->
  node_ok (h ++ [r]) (n_signer r) ->
  (forall s, s <> n_signer r -> ~ is_pledging h s) ->
  Inv (h ++ [r]).
Proof.
  intros HI Hf H1 Hn Hnp. constructor.
  - apply order_ok_app; [apply (inv_order _ HI)|]. eapply Forall_impl; [|exact Hf]. cbn. lia.
  - apply Forall_app. split; [apply (inv_pos _ HI)|]. constructor; [exact H1|constructor].
  - intros s. destruct (N.eq_dec (n_signer r) s) as [<-|E]; [exact Hn|].
    apply node_ok_other; [exact E|apply (inv_nodes _ HI)].
  - intros s y Hc Hp. rewrite last_opt_app. rewrite current_app in Hc.
    destruct (N.eqb_spec (n_signer r) s) as [_|Es]; [exact Hc|]. exfalso.
    apply (Hnp s); [congruence|]. exists y. tauto.
Qed.

Lemma guard_inv h o :
  Inv h -> guard h o -> fresh_ts h (o_ts o) -> 1 <= o_ts o -> Inv (h ++ [rec_of o]).
Proof.
  intros HI Hg Hf H1. unfold guard in Hg.
  assert (Hnext : forall x, current h (o_signer o) = Some x -> n_payee x = o_payee o ->
            n_state x = Pledging /\ (o_kind o = OAccept \/ o_kind o = OCancel) \/
            n_state x = Accepted /\ o_kind o = ORemove ->
            (forall s, s <> o_signer o -> ~ is_pledging h s) -> Inv (h ++ [rec_of o])).
  { intros x Hc Hp Ht Hn. apply inv_append; try assumption.
    apply (node_ok_next h (rec_of o) x (inv_nodes _ HI _) Hc Hp). cbn [rec_of n_state].
    destruct Ht as [[-> [-> | ->]]|[-> ->]]; cbn; tauto. }
  destruct (o_kind o) eqn:Ek.
  1:{ (* pledge *) destruct Hg as (Hn & Hr & _). apply inv_append; try assumption; [|intros s _; apply Hn].
      unfold node_ok. rewrite recs_of_app. cbn [rec_of n_signer]. rewrite Hr, N.eqb_refl. right. cbn.
      rewrite Ek. split; [constructor|]. exists (o_payee o). repeat constructor. }
  3:{ (* remove *) destruct Hg as (Hn & x & Hc & Hp & Hpay). apply (Hnext x Hc Hpay); [tauto|]. intros s _. apply Hn. }
  (* accept and cancel: the node is the one that is pledging *)
  all: destruct Hg as (x & Hc & Hp & Hpay); apply (Hnext x Hc Hpay); [tauto|];
    intros s Hne Hs; apply Hne, (pledging_unique h _ _ HI Hs); exists x; tauto.
Qed.

Definition ts_ok (ts : N) : Prop := 1 <= ts /\ ts + max_period < two64.

Lemma read_full h th ws :
  Inv h -> Forall (fun r => n_ts r <= th) h ->
  read_all_nodes h th ws = Ok (if ws then h else latest h).
Proof.
  intros HI Hb. unfold read_all_nodes. rewrite (scan_full h th (inv_order _ HI) (inv_pos _ HI) Hb). reflexivity.
Qed.

Lemma below_offset h ts p :
  fresh_ts h ts -> ts_ok ts -> p <= max_period -> Forall (fun r => n_ts r <= offset_of ts p) h.
Proof.
  intros Hf [_ Hts] Hp. unfold offset_of. rewrite N.mod_small by lia.
  eapply Forall_impl; [|exact Hf]. cbn. lia.
Qed.

Lemma last_is_pledging_spec h s p ts :
  Inv h -> fresh_ts h ts -> ts_ok ts ->
  match last_is_pledging h s p ts with
  | Ok _ => exists r, current h s = Some r /\ n_state r = Pledging /\ n_payee r = p
  | Err => ~ exists r, current h s = Some r /\ n_state r = Pledging /\ n_payee r = p
  | Panic => h = []
  end.
Proof.
  intros HI Hf Hts. unfold last_is_pledging.
  rewrite (read_full h _ true HI (below_offset _ _ _ Hf Hts (N.le_max_r _ _))). cbn [bind].
  destruct (last_opt h) as [l|] eqn:El; [|apply last_opt_none; exact El].
  assert (Hl : forall r, current h s = Some r -> n_state r = Pledging -> r = l).
  { intros r Hc Hp. pose proof (inv_pledging_last _ HI _ _ Hc Hp) as HL. congruence. }
  destruct (n_state l) eqn:Est; cbn.
  2,3,4: intros (r & Hc & Hp & _); rewrite (Hl r Hc Hp) in Hp; congruence.
  destruct (N.eqb_spec (n_signer l) s) as [<-|Es]; cbn.
  - destruct (N.eqb_spec (n_payee l) p) as [Ep|Ep]; cbn.
    + exists l. split; [apply last_current; exact El|tauto].
    + intros (r & Hc & Hp & Hpay). rewrite (Hl r Hc Hp) in Hpay. contradiction.
  - intros (r & Hc & Hp & _). destruct (current_some _ _ _ Hc) as [E _]. rewrite (Hl r Hc Hp) in E. contradiction.
Qed.

(* remove tests the newest record only: under the invariant no other is pledging *)
Lemma last_settled_iff h l :
  Inv h -> last_opt h = Some l -> settled l = true <-> forall s, ~ is_pledging h s.
Proof.
  intros HI El. rewrite <- not_false_iff_true, settled_false. split.
  - intros Hs s (r & Hc & Hp). rewrite (inv_pledging_last _ HI _ _ Hc Hp) in El. congruence.
  - intros Hn E. apply (Hn (n_signer l)). exists l. split; [apply last_current; exact El|exact E].
Qed.

Lemma apply_guard h o :
  Inv h -> o_genesis o = false -> fresh_ts h (o_ts o) -> ts_ok (o_ts o) ->
  match apply h o with
  | Ok _ => guard h o
  | Err => ~ guard h o
  | Panic => h = [] /\ o_kind o <> OPledge
  end.
Proof.
  intros HI Hg Hf Hts. unfold apply, guard.
  pose proof (last_is_pledging_spec h (o_signer o) (o_payee o) (o_ts o) HI Hf Hts) as HL.
  destruct (o_kind o).
  - unfold write_node_pledge.
    rewrite (read_full h _ false HI (below_offset _ _ _ Hf Hts (N.le_max_l _ _))). cbn [bind].
    pose proof (all_settled_iff h) as Hs. pose proof (pledge_clash_iff h (o_signer o) (o_tx o)) as Hx.
    destruct (forallb settled (latest h)); cbn; [|intros [Hn _]; apply Hs in Hn; discriminate].
    destruct (existsb _ (latest h)); [intros (_ & Hr); apply Hx in Hr; discriminate|].
    split; [apply Hs|apply Hx]; reflexivity.
  - unfold write_node_accept. rewrite Hg.
    destruct (last_is_pledging _ _ _ _); cbn; [exact HL..|]. split; [exact HL|discriminate].
  - unfold write_node_cancel.
    destruct (last_is_pledging _ _ _ _); cbn; [exact HL..|]. split; [exact HL|discriminate].
  - clear HL. unfold write_node_remove.
    rewrite (read_full h _ true HI (below_offset _ _ _ Hf Hts (N.le_max_r _ _))). cbn [bind].
    destruct (last_opt h) as [l|] eqn:El; [|split; [apply last_opt_none; exact El|discriminate]].
    pose proof (last_settled_iff h l HI El) as Hnp.
    destruct (settled l); cbn; [|intros [Hn _]; apply Hnp in Hn; discriminate].
    destruct (current h (o_signer o)) as [node|]; [|intros (_ & r & Hc & _); discriminate].
    destruct (N.eqb_spec (n_payee node) (o_payee o)) as [Ep|Ep]; cbn;
      [|intros (_ & r & [= <-] & _ & Hpay); contradiction].
    destruct (n_state node) eqn:Est; cbn.
    1,3,4: intros (_ & r & [= <-] & Hst & _); congruence.
    split; [apply Hnp; reflexivity|]. exists node. tauto.
Qed.

Theorem step_spec h o t :
  Inv h -> Forall (fun r => n_ts r <= t) h ->
  o_genesis o = false -> t < o_ts o -> o_ts o + max_period < two64 ->
  match apply h o with
  | Ok h' => h' = h ++ [rec_of o] /\ guard h o /\ Inv h'
  | Err => ~ guard h o
  | Panic => h = [] /\ o_kind o <> OPledge
  end.
Proof.
  intros HI Hb Hg Hlt Hmax.
  assert (Hf : fresh_ts h (o_ts o)) by (eapply Forall_impl; [|exact Hb]; cbn; lia).
  assert (Hts : ts_ok (o_ts o)) by (split; [lia|exact Hmax]).
  pose proof (apply_guard h o HI Hg Hf Hts) as HG.
  destruct (apply h o) as [h'| |] eqn:E; try exact HG.
  rewrite (apply_put _ _ _ E), (put_append (rec_of o) h Hf).
  split; [reflexivity|]. split; [exact HG|]. apply guard_inv; try assumption. apply Hts.
Qed.

(* genesis records are inserted by [put] out of timestamp order; all of them are
   Accepted, which makes inv_pledging_last vacuous *)
Definition GInv (t0 : N) (h : list nrec) : Prop :=
  Inv h /\ Forall (fun r => n_ts r <= t0 /\ n_state r = Accepted) h.

(* order_ok only constrains neighbours: a record may be consed when it is below the head *)
Definition hd_le (t : N) (l : list nrec) : Prop :=
  match l with [] => True | y :: _ => t <= n_ts y end.

Lemma order_ok_cons a l : order_ok (a :: l) = true <-> hd_le (n_ts a) l /\ order_ok l = true.
Proof. destruct l as [|b l]; cbn; [tauto|]. rewrite andb_true_iff, N.leb_le. tauto. Qed.

Lemma hd_le_put t r h : t <= n_ts r -> hd_le t h -> hd_le t (put r h).
Proof. destruct h as [|x l]; cbn; [auto|]. destruct (key_cmp r x); cbn; auto. Qed.

Lemma forall_put (P : nrec -> Prop) r h : P r -> Forall P h -> Forall P (put r h).
Proof. intros Hr. induction 1 as [|x t Hx Ht IH]; cbn; [auto|]. destruct (key_cmp r x); auto. Qed.

Lemma put_cons r x t : n_signer x <> n_signer r ->
  n_ts r <= n_ts x /\ put r (x :: t) = r :: x :: t \/ n_ts x <= n_ts r /\ put r (x :: t) = x :: put r t.
Proof.
  intros Hne. cbn [put]. unfold key_cmp.
  destruct (N.compare_spec (n_ts r) (n_ts x)) as [E|E|E];
    [destruct (N.compare_spec (n_signer r) (n_signer x)) as [E2|_|_]; [congruence|..]|..];
    (left + right; split; [lia|reflexivity]).
Qed.

Lemma put_new r h : recs_of (n_signer r) h = [] ->
  (order_ok h = true -> order_ok (put r h) = true) /\
  forall s, recs_of s (put r h) = if n_signer r =? s then [r] else recs_of s h.
Proof.
  unfold recs_of. induction h as [|x t IH]; cbn [filter]; [intros _; split; reflexivity|].
  destruct (N.eqb_spec (n_signer x) (n_signer r)) as [|Hne]; [discriminate|]. intros Hr.
  destruct (IH Hr) as [IHo IHr]. clear IH.
  destruct (put_cons r x t Hne) as [[Hle ->]|[Hle ->]]; split.
  - intros Ho. apply order_ok_cons. split; [exact Hle|exact Ho].
  - intros s. cbn [filter]. destruct (N.eqb_spec (n_signer r) s) as [<-|_]; [|reflexivity].
    apply N.eqb_neq in Hne. rewrite Hne, Hr. reflexivity.
  - intros Ho. apply order_ok_cons in Ho. apply order_ok_cons.
    split; [apply hd_le_put; tauto|apply IHo; tauto].
  - intros s. cbn [filter]. rewrite IHr. destruct (N.eqb_spec (n_signer r) s) as [<-|_]; [|reflexivity].
    apply N.eqb_neq in Hne. rewrite Hne. reflexivity.
Qed.

Lemma ginv_put t0 h r :
  GInv t0 h -> recs_of (n_signer r) h = [] -> 1 <= n_ts r -> n_ts r <= t0 -> n_state r = Accepted ->
  GInv t0 (put r h).
Proof.
  intros [HI Ha] Hnew H1 H2 H3. destruct (put_new r h Hnew) as [Ho Hr].
  assert (Ha' : Forall (fun r => n_ts r <= t0 /\ n_state r = Accepted) (put r h)) by (apply forall_put; auto).
  split; [constructor|exact Ha'].
  - apply Ho, (inv_order _ HI).
  - apply forall_put; [exact H1|apply (inv_pos _ HI)].
  - intros s. unfold node_ok. rewrite Hr. destruct (n_signer r =? s); [right|apply (inv_nodes _ HI)].
    cbn. rewrite H3. split; [constructor|]. exists (n_payee r). repeat constructor.
  - intros s y Hc Hp. apply current_some in Hc. rewrite Forall_forall in Ha'.
    destruct (Ha' y (proj2 Hc)) as [_ E]. congruence.
Qed.

Lemma genesis_run t0 gs : forall h,
  GInv t0 h -> Forall (genesis_op t0) gs -> NoDup (map o_signer gs) ->
  (forall o, In o gs -> recs_of (o_signer o) h = []) ->
  GInv t0 (run_from h gs).
Proof.
  induction gs as [|o gs IH]; intros h HG Hf Hnd Hnew; [exact HG|].
  apply Forall_cons_iff in Hf. destruct Hf as [(Hk & Hg & H1 & H2) Hf'].
  apply NoDup_cons_iff in Hnd. destruct Hnd as [Hni Hnd'].
  pose proof (Hnew o (or_introl eq_refl)) as Ho.
  assert (E : step h o = put (rec_of o) h).
  { unfold step, apply, write_node_accept. rewrite Hk, Hg. unfold rec_of. rewrite Hk. reflexivity. }
  unfold run_from. cbn [fold_left]. rewrite E. apply IH; try assumption.
  - apply ginv_put; try assumption. cbn. rewrite Hk. reflexivity.
  - intros o' Ho'. rewrite (proj2 (put_new (rec_of o) h Ho)). cbn [rec_of n_signer].
    destruct (N.eqb_spec (o_signer o) (o_signer o')) as [E'|_]; [|exact (Hnew o' (or_intror Ho'))].
    destruct Hni. rewrite E'. apply in_map, Ho'.
Qed.

Fixpoint last_ts (t : N) (ops : list op) : N :=
  match ops with [] => t | o :: r => last_ts (o_ts o) r end.

Lemma run_inv_bound ops : forall h t,
  Inv h -> Forall (fun r => n_ts r <= t) h -> increasing_from t ops ->
  Inv (run_from h ops) /\ Forall (fun r => n_ts r <= last_ts t ops) (run_from h ops).
Proof.
  induction ops as [|o ops IH]; intros h t HI Hb Hinc; [split; assumption|].
  destruct Hinc as (Hg & Hlt & Hmax & Hinc).
  assert (Hb' : Forall (fun r => n_ts r <= o_ts o) h) by (eapply Forall_impl; [|exact Hb]; cbn; lia).
  pose proof (step_spec h o t HI Hb Hg Hlt Hmax) as HS.
  apply (IH (step h o) (o_ts o)); [..|exact Hinc]; unfold step; destruct (apply h o) as [h'| |]; try assumption.
  - apply HS.
  - destruct HS as (-> & _). apply Forall_app. split; [exact Hb'|]. constructor; [apply N.le_refl|constructor].
Qed.

Lemma increasing_split pre : forall t o post,
  increasing_from t (pre ++ o :: post) ->
  increasing_from t pre /\ o_genesis o = false /\ last_ts t pre < o_ts o /\ o_ts o + max_period < two64.
Proof.
  induction pre as [|a pre IH]; intros t o post H; cbn [app increasing_from last_ts] in *; [tauto|].
  destruct H as (Hg & Hlt & Hmax & H). destruct (IH _ _ _ H). tauto.
Qed.

Lemma run_app a b : run (a ++ b) = run_from (run a) b.
Proof. apply fold_left_app. Qed.

Theorem reach_inv t0 gs ops :
  genesis_ok t0 gs -> increasing_from t0 ops ->
  Inv (run (gs ++ ops)) /\ Forall (fun r => n_ts r <= last_ts t0 ops) (run (gs ++ ops)).
Proof.
  intros [Hf Hnd] Hinc. rewrite run_app.
  assert (G0 : GInv t0 []).
  { split; [constructor|constructor]; [reflexivity|constructor|left; reflexivity|discriminate]. }
  destruct (genesis_run t0 gs [] G0 Hf Hnd (fun o _ => eq_refl)) as [HI Hb].
  apply run_inv_bound; [exact HI|eapply Forall_impl; [|exact Hb]; cbn; tauto|exact Hinc].
Qed.

Definition lifecycle_at (h : list nrec) (o : op) : Prop :=
  (forall s, node_ok h s) /\
  (forall s1 s2, is_pledging h s1 -> is_pledging h s2 -> s1 = s2) /\
  match apply h o with
  | Ok h' => h' = h ++ [rec_of o] /\ guard h o
  | Err => ~ guard h o
  | Panic => h = [] /\ o_kind o <> OPledge
  end.

Theorem lifecycle_thm t0 gs pre o post :
  genesis_ok t0 gs -> increasing_from t0 (pre ++ o :: post) -> lifecycle_at (run (gs ++ pre)) o.
Proof.
  intros Hg Hinc. destruct (increasing_split _ _ _ _ Hinc) as (Hpre & Hgen & Hlt & Hmax).
  destruct (reach_inv t0 gs pre Hg Hpre) as [HI Hb]. set (h := run (gs ++ pre)) in *.
  split; [apply (inv_nodes _ HI)|]. split; [intros s1 s2; apply pledging_unique; exact HI|].
  pose proof (step_spec h o _ HI Hb Hgen Hlt Hmax) as HS.
  destruct (apply h o); tauto.
Qed.

Definition reported (h : list nrec) (th : N) : Prop :=
  read_all_nodes h th true = Ok h /\
  exists l, read_all_nodes h th false = Ok l /\
            (forall r, In r l <-> current h (n_signer r) = Some r) /\
            NoDup (map n_signer l).

Theorem reported_thm t0 gs ops th :
  genesis_ok t0 gs -> increasing_from t0 ops -> last_ts t0 ops <= th -> reported (run (gs ++ ops)) th.
Proof.
  intros Hg Hinc Hth. destruct (reach_inv t0 gs ops Hg Hinc) as [HI Hb]. set (h := run (gs ++ ops)) in *.
  assert (Hb' : Forall (fun r => n_ts r <= th) h) by (eapply Forall_impl; [|exact Hb]; cbn; lia).
  unfold reported. rewrite !(read_full h th _ HI Hb'). split; [reflexivity|].
  exists (latest h). split; [reflexivity|]. split; [intros r; apply in_latest_iff|apply latest_nodup].
Qed.

Lemma lifecycle_nodup l : lifecycle l -> NoDup l.
Proof. intros H; inversion H; repeat constructor; cbn; intuition discriminate. Qed.

(* signer keys never repeat across nodes: no state occurs twice in a lifecycle
   (lifecycle_nodup), so two records of one signer key in the same state (two
   pledges, say) are one record *)
Theorem signer_state_unique h r1 r2 :
  (forall s, node_ok h s) -> In r1 h -> In r2 h ->
  n_signer r1 = n_signer r2 -> n_state r1 = n_state r2 -> r1 = r2.
Proof.
  intros Hn H1 H2 Es Est.
  assert (I1 : In r1 (recs_of (n_signer r1) h)) by (apply filter_In; split; [exact H1|apply N.eqb_refl]).
  assert (I2 : In r2 (recs_of (n_signer r1) h)) by (apply filter_In; split; [exact H2|apply N.eqb_eq; congruence]).
  destruct (Hn (n_signer r1)) as [E|[Hl _]]; [rewrite E in I1; destruct I1|].
  exact (NoDup_map_inj n_state _ r1 r2 (lifecycle_nodup _ Hl) I1 I2 Est).
Qed.
