(* Lemmas about Model/Nonce.v: single-use discipline of the nonce handle over
   every schedule, key extraction from two answers, retention bindings. *)
From Coq Require Import List ZArith NArith Bool Lia Znumtheory.
Require Import Mixin.Model.Group Mixin.Model.Nonce Mixin.Proofs.Group Mixin.Proofs.Lists.
Import ListNotations.
Open Scope Z_scope.

(* what a call gets once the nonce is bound to (c, s) *)
Definition answer (c s : Z) (q : request) : nres :=
  match q_challenge q with
  | None => NErr
  | Some c' => if c =? c' then NOk s else NReuse
  end.

Definition bound_to (st : nonce_state) (c s : Z) : Prop :=
  n_used st = true /\ n_challenge st = c /\ n_response st = s.

Lemma respond_bound : forall l st c s q, bound_to st c s -> respond l st q = (st, answer c s q).
Proof.
  intros l st c s q (Hu & Hc & Hs). unfold respond, answer.
  destruct (q_challenge q) as [c'|]; [|reflexivity].
  rewrite Hu, Hc, Hs. destruct (c =? c'); reflexivity.
Qed.

Lemma run_bound : forall l st c s qs, bound_to st c s -> run l st qs = (st, map (answer c s) qs).
Proof.
  intros l st c s qs Hb. induction qs as [|q qs IH]; [reflexivity|].
  cbn [run map]. rewrite (respond_bound l st c s q Hb), IH. reflexivity.
Qed.

Lemma respond_result : forall l st q st' r, respond l st q = (st', r) ->
  match r with
  | NOk s => exists c, q_challenge q = Some c /\ bound_to st' c s
  | NReuse => st' = st /\ n_used st = true /\ exists c, q_challenge q = Some c /\ c <> n_challenge st
  | NErr => st' = st /\ q_challenge q = None
  | NPanic => st' = st
  end.
Proof.
  intros l st q st' r H. unfold respond in H.
  destruct (q_challenge q) as [c|]; [|injection H as <- <-; split; reflexivity].
  destruct (n_used st) eqn:Eu.
  - destruct (Z.eqb_spec (n_challenge st) c) as [Ec|Ec]; injection H as <- <-.
    + exists c. repeat split; assumption.
    + repeat split. exists c. split; [reflexivity | congruence].
  - destruct (n_random st) as [z|]; [|injection H as <- <-; reflexivity].
    destruct (negb (scalar_ok l (q_private q))); [injection H as <- <-; reflexivity|].
    destruct (negb (scalar_ok l z)); injection H as <- <-; [reflexivity|].
    exists c. repeat split.
Qed.

Definition consistent (c s : Z) (q : request) (r : nres) : Prop :=
  match r with
  | NOk s' => q_challenge q = Some c /\ s' = s
  | NReuse => exists c', q_challenge q = Some c' /\ c' <> c
  | NErr => q_challenge q = None
  | NPanic => True
  end.

Lemma answers_consistent : forall c s qs, Forall2 (consistent c s) qs (map (answer c s) qs).
Proof.
  intros c s qs. induction qs as [|q qs IH]; cbn [map]; constructor; [|exact IH].
  unfold answer, consistent. destruct (q_challenge q) as [c'|]; [|reflexivity].
  destruct (Z.eqb_spec c c') as [<-|]; [split; reflexivity | exists c'; split; congruence].
Qed.

Lemma run_snd_cons : forall l st q qs,
  snd (run l st (q :: qs)) = snd (respond l st q) :: snd (run l (fst (respond l st q)) qs).
Proof.
  intros. cbn [run]. destruct (respond l st q) as [st1 r]. cbn [fst snd].
  destruct (run l st1 qs) as [st2 rs]. reflexivity.
Qed.

Lemma run_app : forall l a st b,
  run l st (a ++ b) =
  (fst (run l (fst (run l st a)) b), snd (run l st a) ++ snd (run l (fst (run l st a)) b)).
Proof.
  intros l a. induction a as [|q a IH]; intros st b.
  - cbn. destruct (run l st b); reflexivity.
  - cbn [app run]. destruct (respond l st q) as [st1 r]. rewrite IH.
    destruct (run l st1 a) as [st2 rs]. cbn [fst snd]. destruct (run l st2 b). reflexivity.
Qed.

Lemma run_length : forall l qs st, length (snd (run l st qs)) = length qs.
Proof.
  intros l qs. induction qs as [|q qs IH]; intros st; [reflexivity|].
  rewrite run_snd_cons. cbn [length]. rewrite IH. reflexivity.
Qed.

Theorem extraction : forall l c1 c2, prime l -> (c1 - c2) mod l <> 0 ->
  exists w, ((c1 - c2) * w) mod l = 1 mod l /\
    forall a r s1 s2,
      s1 mod l = (c1 * a + r) mod l -> s2 mod l = (c2 * a + r) mod l ->
      a mod l = ((s1 - s2) * w) mod l.
Proof.
  intros l c1 c2 Hp Hc. destruct (inv_exists l (c1 - c2) Hp Hc) as [w Hw].
  exists w. split; [apply cg_iff; exact Hw|].
  intros a r s1 s2 H1 H2. apply cg_iff. apply cg_iff in H1, H2.
  apply (cg_solve l (c1 - c2) w); [exact Hw|]. rewrite H1, H2. cg_ring.
Qed.

Lemma used_get_in : forall u s c, used_get u s = Some c -> In (s, c) u.
Proof.
  induction u as [|[s' c'] u IH]; intros s c H; cbn [used_get] in H; [discriminate|].
  destruct (N.eqb_spec s' s) as [->|]; [injection H as ->; left; reflexivity | right; apply IH, H].
Qed.

Lemma used_del_in : forall u x s c, In (s, c) (used_del u x) -> In (s, c) u.
Proof. intros u x s c H. apply filter_In in H. apply H. Qed.

Lemma pool_has_in : forall p c, pool_has p c = true <-> In c p.
Proof. intros p c. exact (existsb_eqb_In N.eqb c p N.eqb_eq). Qed.

Lemma pool_del_in : forall p c x, In x (pool_del p c) <-> In x p /\ x <> c.
Proof.
  intros p c x. unfold pool_del. rewrite filter_In, negb_true_iff, N.eqb_neq. tauto.
Qed.

Lemma retain_pool : forall m r snap c, pool (retain m r snap c) = pool r.
Proof.
  intros. unfold retain.
  destruct (Z.of_nat (length _) <=? m); [reflexivity|].
  destruct (match used_get (used r) snap with None => order r ++ [snap] | Some _ => order r end); reflexivity.
Qed.

Lemma retain_used_in : forall m r snap c0 s c,
  In (s, c) (used (retain m r snap c0)) -> (s, c) = (snap, c0) \/ In (s, c) (used r).
Proof.
  intros m r snap c0 s c H.
  assert (Hs : In (s, c) (used_set (used r) snap c0)).
  { unfold retain in H. destruct (Z.of_nat (length _) <=? m); [exact H|].
    destruct (match used_get (used r) snap with None => order r ++ [snap] | Some _ => order r end);
      [exact H | exact (used_del_in _ _ _ _ H)]. }
  destruct Hs as [Hs|Hs]; [left; symmetry; exact Hs | right; exact (used_del_in _ _ _ _ Hs)].
Qed.

(* the state after a commitment is taken from the pool for [snap] *)
Definition take (m : Z) (r : retention) (snap c : N) : retention :=
  let r1 := retain m r snap c in mkRet (pool_del (pool r1) c) (used r1) (order r1).

Lemma take_pool : forall m r snap c x, In x (pool (take m r snap c)) <-> In x (pool r) /\ x <> c.
Proof. intros. cbn [take pool]. rewrite pool_del_in, retain_pool. reflexivity. Qed.

Lemma retrieve_cases : forall m r snap c r' got, retrieve m r snap c = (r', got) ->
  r' = r /\ (got = None \/ got = Some c /\ In (snap, c) (used r)) \/
  got = Some c /\ In c (pool r) /\ r' = take m r snap c.
Proof.
  intros m r snap c r' got H. unfold retrieve in H. fold (take m r snap c) in H.
  destruct (used_get (used r) snap) as [c'|] eqn:Eg; [destruct (N.eqb_spec c' c) as [->|]|].
  - injection H as <- <-. apply used_get_in in Eg. auto.
  - destruct (pool_has (pool r) c) eqn:Ep; injection H as <- <-; [apply pool_has_in in Ep|]; auto.
  - destruct (pool_has (pool r) c) eqn:Ep; injection H as <- <-; [apply pool_has_in in Ep|]; auto.
Qed.

(* ghost state: G every commitment generated so far, B every (snapshot,
   commitment) pair handed out so far.  [inv_B_fun] is C12_retention;
   [inv_pool_fresh] is what keeps it true when a commitment leaves the pool, and
   with [inv_B_G] and [rrun_outputs] gives C12_retention_evicted; the other two
   fields tie the state to the ghosts. *)
Record rinv (G : list N) (B : list (N * N)) (r : retention) : Prop := mkRinv {
  inv_pool_G : forall c, In c (pool r) -> In c G;
  inv_pool_fresh : forall c s, In c (pool r) -> ~ In (s, c) B;
  inv_used_B : forall s c, In (s, c) (used r) -> In (s, c) B;
  inv_B_G : forall s c, In (s, c) B -> In c G;
  inv_B_fun : forall s1 s2 c, In (s1, c) B -> In (s2, c) B -> s1 = s2
}.

Lemma rinv_ext : forall G B B' r, (forall x, In x B <-> In x B') -> rinv G B r -> rinv G B' r.
Proof.
  intros G B B' r HE [HpG Hfresh HuB HBG Hfun]. constructor.
  - exact HpG.
  - intros c s Hc. rewrite <- HE. auto.
  - intros s c Hu. rewrite <- HE. auto.
  - intros s c Hb. rewrite <- HE in Hb. eauto.
  - intros s1 s2 c Hb1 Hb2. rewrite <- HE in Hb1, Hb2. eauto.
Qed.

Lemma take_inv : forall m G B r snap c,
  rinv G B r -> In c (pool r) -> rinv G ((snap, c) :: B) (take m r snap c).
Proof.
  intros m G B r snap c [HpG Hfresh HuB HBG Hfun] Hp. constructor.
  - intros x Hx. apply take_pool in Hx. apply HpG, Hx.
  - intros x s Hx. apply take_pool in Hx. destruct Hx as [Hx Hne].
    intros [[= _ E]|Hin]; [congruence | exact (Hfresh _ _ Hx Hin)].
  - intros s x Hu. apply retain_used_in in Hu. destruct Hu as [E|Hu]; [left; symmetry; exact E | right; auto].
  - intros s x [[= _ <-]|Hb]; eauto.
  - intros s1 s2 x [E1|Hb1] [E2|Hb2]; [congruence | | | eauto].
    + injection E1 as <- <-. destruct (Hfresh _ _ Hp Hb2).
    + injection E2 as <- <-. destruct (Hfresh _ _ Hp Hb1).
Qed.

Lemma retrieve_inv : forall m G B r snap c r' got,
  rinv G B r -> retrieve m r snap c = (r', got) ->
  match got with
  | Some c' => c' = c /\ rinv G ((snap, c) :: B) r'
  | None => r' = r
  end.
Proof.
  intros m G B r snap c r' got HI H.
  destruct (retrieve_cases _ _ _ _ _ _ H) as [[-> [->|[-> Hu]]]|(-> & Hp & ->)].
  - reflexivity.
  - split; [reflexivity|]. apply (rinv_ext G B); [|exact HI].
    apply (inv_used_B _ _ _ HI) in Hu. intros x. split; [right; assumption | intros [<-|Hx]; assumption].
  - split; [reflexivity | apply take_inv; assumption].
Qed.

Lemma prepare_inv : forall G B r cs,
  rinv G B r -> Forall (fun c => ~ In c G) cs -> rinv (cs ++ G) B (prepare r cs).
Proof.
  intros G B r cs [HpG Hfresh HuB HBG Hfun] HF. rewrite Forall_forall in HF.
  constructor; cbn [prepare pool used].
  - intros c Hc. rewrite in_app_iff in *. destruct Hc; auto.
  - intros c s Hc Hb. apply in_app_iff in Hc. destruct Hc as [Hc|Hc]; [exact (HF _ Hc (HBG _ _ Hb)) | exact (Hfresh _ _ Hc Hb)].
  - exact HuB.
  - intros s c Hb. apply in_app_iff. right. eauto.
  - exact Hfun.
Qed.

(* every prepared batch is disjoint from all commitments generated before it *)
Fixpoint fresh_ok (G : list N) (ops : list rop) : Prop :=
  match ops with
  | [] => True
  | RPrepare cs :: os => Forall (fun c => ~ In c G) cs /\ fresh_ok (cs ++ G) os
  | RRetrieve _ _ :: os => fresh_ok G os
  end.

Fixpoint gen_of (G : list N) (ops : list rop) : list N :=
  match ops with
  | [] => G
  | RPrepare cs :: os => gen_of (cs ++ G) os
  | RRetrieve _ _ :: os => gen_of G os
  end.

Lemma fresh_ok_app : forall a G b, fresh_ok G (a ++ b) <-> fresh_ok G a /\ fresh_ok (gen_of G a) b.
Proof.
  induction a as [|o a IH]; intros G b; cbn [app fresh_ok gen_of]; [tauto|].
  destruct o; rewrite IH; tauto.
Qed.

Lemma rrun_cons : forall m r o os,
  rrun m r (o :: os) =
  (fst (rrun m (fst (rstep m r o)) os),
   match snd (rstep m r o) with Some x => x :: snd (rrun m (fst (rstep m r o)) os)
                              | None => snd (rrun m (fst (rstep m r o)) os) end).
Proof.
  intros. cbn [rrun]. destruct (rstep m r o) as [r1 h]. cbn [fst snd].
  destruct (rrun m r1 os) as [r2 hs]. reflexivity.
Qed.

Lemma rrun_inv : forall m ops G B r,
  rinv G B r -> fresh_ok G ops ->
  rinv (gen_of G ops) (snd (rrun m r ops) ++ B) (fst (rrun m r ops)).
Proof.
  intros m ops. induction ops as [|o os IH]; intros G B r HI HF; [exact HI|].
  rewrite rrun_cons. cbn [fst snd]. destruct o as [cs | snap c]; cbn [fresh_ok gen_of rstep fst snd] in *.
  - apply IH; [apply prepare_inv; [exact HI|] |]; apply HF.
  - destruct (retrieve m r snap c) as [r1 got] eqn:Er. cbn [fst snd].
    pose proof (retrieve_inv _ _ _ _ _ _ _ _ HI Er) as HR.
    destruct got as [c'|]; [|subst r1; apply IH; assumption].
    destruct HR as [-> HI']. refine (rinv_ext _ _ _ _ _ (IH G _ r1 HI' HF)).
    intros x. cbn [app In]. rewrite !in_app_iff. cbn [In]. tauto.
Qed.

Lemma empty_inv : rinv [] [] empty_retention.
Proof. constructor; cbn; intros; tauto. Qed.

Lemma rrun_outputs : forall m ops G r s c, fresh_ok G ops ->
  In (s, c) (snd (rrun m r ops)) -> In (s, c) (used r) \/ In c (pool r) \/ ~ In c G.
Proof.
  intros m ops. induction ops as [|o os IH]; intros G r s c HF Hin; [destruct Hin|].
  rewrite rrun_cons in Hin. cbn [snd] in Hin.
  destruct o as [cs | snap c0]; cbn [fresh_ok rstep fst snd] in *.
  - destruct HF as [HF1 HF2]. rewrite Forall_forall in HF1.
    destruct (IH _ _ _ _ HF2 Hin) as [Hu|[Hp|Hg]]; cbn [prepare pool used] in *; auto.
    + apply in_app_iff in Hp. destruct Hp as [Hp|Hp]; auto.
    + right; right. intros Hc. apply Hg, in_app_iff. auto.
  - destruct (retrieve m r snap c0) as [r1 got] eqn:Er. cbn [fst snd] in Hin.
    destruct (retrieve_cases _ _ _ _ _ _ Er) as [[-> [->|[-> Hu]]]|(-> & Hp & ->)].
    + exact (IH _ _ _ _ HF Hin).
    + destruct Hin as [[= <- <-]|Hin]; [auto | exact (IH _ _ _ _ HF Hin)].
    + destruct Hin as [[= <- <-]|Hin]; [auto|].
      destruct (IH _ _ _ _ HF Hin) as [Hu|[Hp'|Hg]]; auto.
      * apply retain_used_in in Hu. destruct Hu as [[= -> ->]|Hu]; auto.
      * apply take_pool in Hp'. tauto.
Qed.
