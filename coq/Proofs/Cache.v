(* What one retrieval consumes and returns ([scan_spec]); an order record is backed by
   a queue entry and a body ([cache_wf]); returns are accounted against queue entries
   over a history; the queue keys stay a strictly sorted set ([sortedq]). *)
From Coq Require Import List ZArith NArith Bool Lia ZifyN ZifyNat ZifyBool.
Require Import Mixin.Base.Res Mixin.Model.Cache Mixin.Proofs.Res Mixin.Proofs.Lists.
Import ListNotations.
Open Scope N_scope.

Lemma mem_In h l : mem h l = true <-> In h l.
Proof.
  unfold mem. rewrite existsb_exists. split.
  - intros (x & Hin & ->%N.eqb_eq). exact Hin.
  - intros Hin. exists h. split; [exact Hin | apply N.eqb_refl].
Qed.

Lemma mem_false h l : mem h l = false <-> ~ In h l.
Proof. rewrite <- mem_In. destruct (mem h l); split; congruence. Qed.

Lemma key_eqb_eq a b : key_eqb a b = true <-> a = b.
Proof.
  destruct a as [a1 a2], b as [b1 b2]. unfold key_eqb. cbn [fst snd].
  rewrite andb_true_iff, !N.eqb_eq. split; [intros [-> ->]; reflexivity | intros [= -> ->]; auto].
Qed.

Lemma In_qins k a q : In k (qins a q) <-> In k (a :: q).
Proof.
  induction q as [|x q IH]; cbn [qins]; [reflexivity|].
  destruct (key_eqb a x) eqn:E; [apply key_eqb_eq in E as <-; cbn; tauto|].
  destruct (key_ltb a x); [reflexivity|]. cbn [In]. rewrite IH. cbn [In]. clear. tauto.
Qed.

Lemma In_oins x h l : In x (oins h l) <-> In x (h :: l).
Proof.
  induction l as [|y l IH]; cbn [oins]; [reflexivity|].
  destruct (N.eqb_spec h y) as [<-|_]; [cbn; tauto|].
  destruct (h <? y); [reflexivity|]. cbn [In]. rewrite IH. cbn [In]. clear. tauto.
Qed.

Lemma In_odel x h l : In x (odel h l) <-> In x l /\ x <> h.
Proof. unfold odel. rewrite filter_In, negb_true_iff, N.eqb_neq. reflexivity. Qed.

Lemma In_fold_odel pr : forall o x, In x (fold_left (fun o h => odel h o) pr o) <-> In x o /\ ~ In x pr.
Proof.
  induction pr as [|p pr IH]; intros o x; cbn [fold_left]; [cbn; tauto|].
  rewrite IH, In_odel. cbn [In]. intuition.
Qed.

Lemma aget_aset A h h' (v : A) m : aget h' (aset h v m) = if h =? h' then Some v else aget h' m.
Proof.
  induction m as [|[k w] m IH]; cbn [aset aget]; [reflexivity|].
  destruct (N.eqb_spec h k) as [<-|Hk]; [cbn [aget]; destruct (h =? h'); reflexivity|].
  destruct (h <? k); cbn [aget]; [reflexivity|]. rewrite IH.
  destruct (N.eqb_spec k h') as [<-|_]; [|reflexivity]. rewrite (proj2 (N.eqb_neq h k) Hk). reflexivity.
Qed.

Lemma aget_adel A h h' (m : list (N * A)) : aget h' (adel h m) = if h =? h' then None else aget h' m.
Proof.
  induction m as [|[k w] m IH]; cbn [adel filter aget fst]; [destruct (h =? h'); reflexivity|].
  fold (adel h m). destruct (N.eqb_spec k h) as [->|Hk]; cbn [negb aget]; rewrite IH.
  - destruct (h =? h'); reflexivity.
  - destruct (N.eqb_spec k h') as [<-|_]; [|reflexivity]. rewrite (proj2 (N.eqb_neq h k)); auto.
Qed.

Lemma store_queue h b c : queue (store_tx h b c) = queue c /\ order (store_tx h b c) = order c.
Proof. unfold store_tx. destruct (aget h (payload c)); split; reflexivity. Qed.

Lemma remove_queue hs c : queue (remove_txs hs c) = queue c.
Proof. apply (fold_left_inv (fun c' => queue c' = queue c)); auto. Qed.

Lemma remove_payload hs : forall c h,
  aget h (payload (remove_txs hs c)) = if mem h hs then None else aget h (payload c).
Proof.
  unfold remove_txs. induction hs as [|a hs IH]; intros c h; cbn [fold_left]; [reflexivity|].
  rewrite IH. cbn [mem existsb remove_one payload]. fold (mem h hs). rewrite aget_adel, (N.eqb_sym a h).
  destruct (h =? a), (mem h hs); reflexivity.
Qed.

Lemma remove_order hs : forall c x, In x (order (remove_txs hs c)) <-> In x (order c) /\ ~ In x hs.
Proof.
  unfold remove_txs. induction hs as [|a hs IH]; intros c x; cbn [fold_left]; [cbn; intuition|].
  rewrite IH. cbn [remove_one order]. rewrite In_odel. cbn [In]. intuition.
Qed.

(* The limit is a Go int compared by len(txs) < limit, so a limit at or below n
   returns nothing: hence Z.max 0.  The last conjunct (a limit that covers the queue
   leaves nothing behind) is there for [eligible_retrieved] alone. *)
Lemma scan_spec pay limit q : forall seen n out pr rest,
  scan pay limit q seen n = Ok (out, pr, rest) ->
  exists pre, q = pre ++ rest /\ pr = map snd pre /\
    (forall h b, In (h, b) out <-> In h pr /\ ~ In h seen /\ aget h pay = Some b) /\
    (forall h b, In (h, b) out -> b <> 0) /\
    NoDup (map fst out) /\
    (Z.of_nat (length out) <= Z.max 0 (limit - n))%Z /\
    ((n + Z.of_nat (length q) <= limit)%Z -> rest = []).
Proof.
  induction q as [|[ts h] q IH]; intros seen n out pr rest; cbn [scan].
  { intros [= <- <- <-]. exists []. cbn. repeat split; try tauto; [constructor | lia]. }
  destruct (Z.ltb_spec n limit) as [El|El].
  2:{ intros [= <- <- <-]. exists []. cbn [app map length In]. repeat split; try tauto; [constructor | lia | lia]. }
  destruct (mem h seen) eqn:Em;
    [apply mem_In in Em
    |apply mem_false in Em; destruct (aget h pay) as [b|] eqn:Eg; [destruct (N.eqb_spec b 0) as [|Eb]; [discriminate|]|]].
  (* in each case one recursive call, to whose result [h] (and in the second case its body) is added *)
  all: intros ([[o1 p1] r1] & (pre & -> & -> & Ho & Hz & Hn & Hl & Hr)%IH & [= <- <- <-])%bind_ok.
  all: clear IH; exists ((ts, h) :: pre); cbn [app map snd fst length In] in *.
  all: do 2 (split; [reflexivity|]); split; [intros x b'|split; [intros x b'|split; [|split; [clear - Hl El; lia | intro Hq; apply Hr; clear - Hq; lia]]]].
  - (* h was seen: the three conjuncts about out *) rewrite Ho. clear - Em. intuition (subst; tauto).
  - apply Hz.
  - exact Hn.
  - (* h is new and has a body b: the same three *) split.
    + intros [[= <- <-]|(H1 & H2 & H3)%Ho]; [clear - Em Eg | clear - H1 H2 H3]; tauto.
    + intros ([<-|H1] & H2 & H3); [left; congruence|].
      destruct (N.eq_dec h x) as [<-|Hne]; [left; congruence | right; apply Ho; tauto].
  - intros [[= <- <-]|Hin]; [exact Eb | exact (Hz _ _ Hin)].
  - constructor; [|exact Hn]. intros ([x b'] & <- & Hin%Ho)%in_map_iff. cbn [fst In] in Hin. tauto.
  - (* h is new and has no body: the same three *) rewrite Ho. split; [clear; tauto|].
    intros ([<-|H1] & H2 & H3); [congruence|]. repeat split; auto. intros [<-|]; [congruence | tauto].
  - apply Hz.
  - exact Hn.
Qed.

Lemma retrieve_scan limit c out c' :
  retrieve limit c = Ok (out, c') ->
  exists pr, scan (payload c) limit (queue c) [] 0%Z = Ok (out, pr, queue c') /\
    payload c' = payload c /\ order c' = fold_left (fun o h => odel h o) pr (order c).
Proof.
  unfold retrieve. intros ([[o1 p1] r1] & Es & [= <- <-])%bind_ok. exists p1. auto.
Qed.

Lemma retrieve_spec : forall limit c out c',
  retrieve limit c = Ok (out, c') ->
  exists pre,
    queue c = pre ++ queue c' /\
    payload c' = payload c /\
    (forall x, In x (order c') <-> In x (order c) /\ ~ In x (map snd pre)) /\
    (forall h b, In (h, b) out -> In h (map snd pre) /\ aget h (payload c) = Some b /\ b <> 0) /\
    NoDup (map fst out) /\
    (Z.of_nat (length out) <= Z.max 0 limit)%Z.
Proof.
  intros limit c out c' (pr & (pre & Hq & -> & Ho & Hz & Hn & Hl & _)%scan_spec & Hp & Hord)%retrieve_scan.
  exists pre. split; [exact Hq|]. split; [exact Hp|]. split; [|split; [|split; [exact Hn | lia]]].
  - intro x. rewrite Hord. apply In_fold_odel.
  - intros h b Hin. split; [|split; [|exact (Hz _ _ Hin)]]; apply Ho in Hin; tauto.
Qed.

Lemma in_map_snd (h : N) (pre : list qkey) : In h (map snd pre) -> exists ts, In (ts, h) pre.
Proof. intros ([ts h'] & <- & Hin)%in_map_iff. exists ts. exact Hin. Qed.

Lemma retrieve_only_queued limit c out c' h b :
  retrieve limit c = Ok (out, c') -> In (h, b) out ->
  (exists ts, In (ts, h) (queue c)) /\ aget h (payload c) = Some b.
Proof.
  intros (pre & Hq & _ & _ & Ho & _)%retrieve_spec Hin. destruct (Ho _ _ Hin) as ([ts Hts]%in_map_snd & Hb & _).
  split; [|exact Hb]. exists ts. rewrite Hq. apply in_or_app. left. exact Hts.
Qed.

Lemma retrieve_clears_order limit c out c' h :
  retrieve limit c = Ok (out, c') -> In h (map fst out) -> ~ In h (order c').
Proof.
  intros (pre & _ & _ & Hord & Ho & _)%retrieve_spec ([h' b] & <- & Hin)%in_map_iff [_ Hc]%Hord.
  apply Hc, (Ho _ _ Hin).
Qed.

Definition eligible (c : cache) (h : N) : Prop :=
  (exists ts, In (ts, h) (queue c)) /\ exists b, aget h (payload c) = Some b.

Definition cache_wf (c : cache) : Prop := forall h, In h (order c) -> eligible c h.

Lemma wf_empty : cache_wf empty_cache.
Proof. intros h []. Qed.

Lemma eligible_queue_mono ts h b c x : eligible c x -> eligible (queue_tx ts h b c) x.
Proof.
  intros [[t Ht] [bx Hb]]. unfold queue_tx. destruct (mem h (order c)); [split; eauto|].
  split; cbn [queue payload].
  - exists t. apply In_qins. right. exact Ht.
  - rewrite aget_aset. destruct (h =? x); eauto.
Qed.

Lemma queue_tx_fresh ts h b c : mem h (order c) = false ->
  In (ts, h) (queue (queue_tx ts h b c)) /\ aget h (payload (queue_tx ts h b c)) = Some b.
Proof.
  intros Em. unfold queue_tx. rewrite Em. cbn [queue payload]. split.
  - apply In_qins. left. reflexivity.
  - rewrite aget_aset, N.eqb_refl. reflexivity.
Qed.

Lemma queue_tx_eligible ts h b c : cache_wf c -> eligible (queue_tx ts h b c) h.
Proof.
  intros Hwf. destruct (mem h (order c)) eqn:Em.
  - unfold queue_tx. rewrite Em. exact (Hwf _ (proj1 (mem_In _ _) Em)).
  - destruct (queue_tx_fresh ts h b c Em) as [Hq Hp]. split; eauto.
Qed.

Lemma wf_queue ts h b c : cache_wf c -> cache_wf (queue_tx ts h b c).
Proof.
  intros Hwf x Hx. destruct (N.eq_dec x h) as [->|He]; [apply queue_tx_eligible, Hwf|].
  apply eligible_queue_mono, Hwf. unfold queue_tx in Hx. destruct (mem h (order c)); [exact Hx|].
  apply In_oins in Hx as [Hx|Hx]; [congruence | exact Hx].
Qed.

Lemma wf_store h b c : cache_wf c -> cache_wf (store_tx h b c).
Proof.
  intros Hwf x Hx. unfold store_tx in *. destruct (aget h (payload c)) eqn:Eg; [exact (Hwf _ Hx)|].
  destruct (Hwf _ Hx) as [Hq [bx Hb]]. split; cbn [queue payload]; [exact Hq|].
  rewrite aget_aset. destruct (h =? x); eauto.
Qed.

Lemma wf_remove hs c : cache_wf c -> cache_wf (remove_txs hs c).
Proof.
  intros Hwf x [Hx Hn%mem_false]%remove_order. destruct (Hwf _ Hx) as [Hq Hb].
  split; [rewrite remove_queue; exact Hq | rewrite remove_payload, Hn; exact Hb].
Qed.

Lemma wf_retrieve limit c out c' : cache_wf c -> retrieve limit c = Ok (out, c') -> cache_wf c'.
Proof.
  intros Hwf (pre & Hq & Hp & Hord & _)%retrieve_spec x [Hx Hn]%Hord.
  destruct (Hwf _ Hx) as [[ts Hts] Hb]. split; [|rewrite Hp; exact Hb].
  exists ts. rewrite Hq in Hts. apply in_app_or in Hts as [Hts|Hts]; [|exact Hts].
  destruct Hn. apply (in_map snd _ _ Hts).
Qed.

Lemma wf_step c o : cache_wf c -> cache_wf (fst (step c o)).
Proof.
  intros Hwf. destruct o; cbn [step fst];
    [apply wf_queue, Hwf | apply wf_store, Hwf | | apply wf_remove, Hwf | exact Hwf].
  destruct (retrieve limit c) as [[out c']| |] eqn:Er; [exact (wf_retrieve _ _ _ _ Hwf Er) | exact Hwf | exact Hwf].
Qed.

Lemma eligible_retrieved : forall limit c out c' h,
  eligible c h -> retrieve limit c = Ok (out, c') ->
  (Z.of_nat (length (queue c)) <= limit)%Z ->
  exists b, In (h, b) out /\ aget h (payload c) = Some b.
Proof.
  intros limit c out c' h [[ts Hts] [b Hb]] (pr & (pre & Hq & -> & Ho & _ & _ & _ & Hr)%scan_spec & _)%retrieve_scan Hl.
  exists b. split; [|exact Hb]. apply Ho. rewrite Hq, Hr, app_nil_r in Hts by lia.
  split; [exact (in_map snd _ _ Hts) | auto].
Qed.

Lemma tstep_cache t o : t_cache (tstep t o) = fst (step (t_cache t) o).
Proof. unfold tstep. destruct (step (t_cache t) o). reflexivity. Qed.

Lemma run_cache_inv (P : cache -> Prop) :
  (forall c o, P c -> P (fst (step c o))) -> forall ops t, P (t_cache t) -> P (t_cache (run ops t)).
Proof.
  intros Hs ops. apply (fold_left_inv (fun t => P (t_cache t))). intros t o _ Ht. rewrite tstep_cache. auto.
Qed.

Lemma count_app h a b : count h (a ++ b) = (count h a + count h b)%nat.
Proof. apply count_occ_app. Qed.

Lemma count_qins h k q :
  (count h (map snd (qins k q)) <= count h (map snd q) + (if N.eq_dec (snd k) h then 1 else 0))%nat.
Proof.
  unfold count. induction q as [|x q IH]; cbn [qins]; [cbn [map count_occ]; destruct (N.eq_dec (snd k) h); lia|].
  destruct (key_eqb k x); [lia|].
  destruct (key_ltb k x); cbn [map count_occ]; [|destruct (N.eq_dec (snd x) h)]; destruct (N.eq_dec (snd k) h); lia.
Qed.

Lemma count_nodup_le h l pr : NoDup l -> (In h l -> In h pr) -> (count h l <= count h pr)%nat.
Proof.
  intros Hn Hin. unfold count. destruct (in_dec N.eq_dec h l) as [Hi|Hi].
  - rewrite (proj1 (NoDup_count_occ' N.eq_dec l) Hn h Hi). apply (count_occ_In N.eq_dec), Hin, Hi.
  - rewrite (proj1 (count_occ_not_In N.eq_dec l h) Hi). lia.
Qed.

Lemma retrieve_pending limit c out c' h :
  retrieve limit c = Ok (out, c') -> (count h (map fst out) + pending h c' <= pending h c)%nat.
Proof.
  intros (pre & Hq & _ & _ & Ho & Hn & _)%retrieve_spec. unfold pending. rewrite Hq, map_app, count_app. unfold qkey in *.
  enough (count h (map fst out) <= count h (map snd pre))%nat by lia.
  apply count_nodup_le; [exact Hn|]. intros ([h' b] & <- & Hin)%in_map_iff. apply (Ho _ _ Hin).
Qed.

Lemma queue_tx_pending ts h0 b c h :
  (pending h (queue_tx ts h0 b c) <= pending h c + count h (if mem h0 (order c) then [] else [h0]))%nat.
Proof.
  unfold queue_tx, pending. destruct (mem h0 (order c)); [lia|]. cbn [queue].
  pose proof (count_qins h (ts, h0) (queue c)) as Hq. unfold count at 3. cbn [snd count_occ] in *.
  destruct (N.eq_dec h0 h); lia.
Qed.

Definition acct_inv (h : N) (t : trace) : Prop :=
  (count h (t_returned t) + pending h (t_cache t) <= count h (t_created t))%nat.

Lemma tstep_inv h t o : acct_inv h t -> acct_inv h (tstep t o).
Proof.
  unfold acct_inv, tstep. intro Hi.
  destruct o as [ts h0 b|h0 b|limit|hs|h0]; cbn [step t_cache t_returned t_created].
  - rewrite app_nil_r, count_app. pose proof (queue_tx_pending ts h0 b (t_cache t) h). lia.
  - unfold pending. rewrite !app_nil_r, (proj1 (store_queue _ _ _)). exact Hi.
  - destruct (retrieve limit (t_cache t)) as [[out c']| |] eqn:Er;
      cbn [t_cache t_returned t_created]; rewrite app_nil_r; [|rewrite app_nil_r; exact Hi..].
    rewrite count_app. pose proof (retrieve_pending _ _ _ _ h Er). lia.
  - unfold pending. rewrite !app_nil_r, remove_queue. exact Hi.
  - rewrite !app_nil_r. exact Hi.
Qed.

Lemma tstep_created h t o :
  (count h (t_created (tstep t o)) <= count h (t_created t) + queue_ops h [o])%nat.
Proof.
  unfold tstep, queue_ops. destruct (step (t_cache t) o) as [c' r]. cbn [t_created filter]. rewrite count_app.
  destruct o; try (cbn; lia). destruct (mem h0 (order (t_cache t))); [cbn; lia|].
  unfold count at 2. cbn [count_occ]. destruct (N.eq_dec h0 h) as [->|Hne]; [rewrite N.eqb_refl; cbn; lia|].
  cbn. lia.
Qed.

Lemma run_created h ops : forall t,
  (count h (t_created (run ops t)) <= count h (t_created t) + queue_ops h ops)%nat.
Proof.
  unfold run. induction ops as [|o ops IH]; intro t; cbn [fold_left]; [lia|].
  specialize (IH (tstep t o)). pose proof (tstep_created h t o) as Hs.
  unfold queue_ops in *. cbn [filter] in *. destruct (match o with OQueue _ h' _ => h' =? h | _ => false end); cbn [length] in *; lia.
Qed.

Lemma accounting : forall ops h,
  let t := run ops start in
  (count h (t_returned t) + pending h (t_cache t) <= count h (t_created t))%nat /\
  (count h (t_created t) <= queue_ops h ops)%nat.
Proof.
  intros ops h t. split; [|exact (run_created h ops start)].
  apply (fold_left_inv (acct_inv h)); [intros; apply tstep_inv; assumption | red; cbn; lia].
Qed.

Lemma returned_was_queued ops h : In h (t_returned (run ops start)) -> (1 <= queue_ops h ops)%nat.
Proof.
  intros Hin%(count_occ_In N.eq_dec). destruct (accounting ops h) as [H1 H2]. unfold count in *. cbv zeta in *. lia.
Qed.

Lemma step_queue_origin c o k :
  In k (queue (fst (step c o))) -> In k (queue c) \/ exists b, o = OQueue (fst k) (snd k) b.
Proof.
  destruct o; cbn [step fst]; rewrite ?remove_queue, ?(proj1 (store_queue _ _ _)); auto.
  - unfold queue_tx. destruct (mem h (order c)); [auto|]. intros [<-|Hin]%In_qins; eauto.
  - destruct (retrieve limit c) as [[out c']| |] eqn:Er; auto.
    apply retrieve_spec in Er as (pre & -> & _). intro Hin. left. apply in_or_app. right. exact Hin.
Qed.

(* the queue keys form a strictly sorted set, so a consumed entry is gone *)
Fixpoint sortedq (q : list qkey) : Prop :=
  match q with
  | [] => True
  | x :: q' => (forall y, In y q' -> key_ltb x y = true) /\ sortedq q'
  end.

Lemma key_ltb_trans a b c : key_ltb a b = true -> key_ltb b c = true -> key_ltb a c = true.
Proof. destruct a, b, c. unfold key_ltb. cbn [fst snd]. lia. Qed.

Lemma key_ltb_total a b : key_eqb a b = false -> key_ltb a b = false -> key_ltb b a = true.
Proof. destruct a, b. unfold key_ltb, key_eqb. cbn [fst snd]. lia. Qed.

Lemma key_ltb_irrefl a : key_ltb a a = false.
Proof. destruct a. unfold key_ltb. cbn [fst snd]. lia. Qed.

Lemma sortedq_qins k q : sortedq q -> sortedq (qins k q).
Proof.
  induction q as [|x q IH]; cbn [qins]; [cbn; tauto|]. intros [Hx Hq].
  destruct (key_eqb k x) eqn:E; [split; assumption|]. destruct (key_ltb k x) eqn:L.
  - split; [|split; assumption]. intros y [<-|Hy%Hx]; [exact L | exact (key_ltb_trans k x y L Hy)].
  - split; [|apply IH; exact Hq]. intros y [<-|Hy]%In_qins; [apply key_ltb_total; assumption | apply Hx; exact Hy].
Qed.

Lemma sortedq_app pre rest : sortedq (pre ++ rest) -> sortedq rest /\ forall k, In k pre -> ~ In k rest.
Proof.
  induction pre as [|x pre IH]; cbn [app]; [split; [assumption | intros k []]|].
  intros [Hx [Hr Hd]%IH]. split; [exact Hr|]. intros k [<-|Hk]; [|apply Hd; exact Hk].
  intros Hc. specialize (Hx x (in_or_app _ _ _ (or_intror Hc))). rewrite key_ltb_irrefl in Hx. discriminate.
Qed.

Lemma sortedq_step c o : sortedq (queue c) -> sortedq (queue (fst (step c o))).
Proof.
  intros Hs. destruct o; cbn [step fst]; rewrite ?remove_queue, ?(proj1 (store_queue _ _ _)); try exact Hs.
  - unfold queue_tx. destruct (mem h (order c)); [exact Hs | apply sortedq_qins, Hs].
  - destruct (retrieve limit c) as [[out c']| |] eqn:Er; cbn [fst]; try exact Hs.
    apply retrieve_spec in Er as (pre & Hq & _). rewrite Hq in Hs. apply (sortedq_app _ _ Hs).
Qed.
