(* Model/SnapCodec.v.  Every field reader is paired with its encoder ([codec]); the decoder is
   inverted in one pass over these pairs ([dec_inv]) and run over them on the encoder's output
   ([dec_enc]); [canonical] and [roundtrip] follow. *)
From Coq Require Import List ZArith NArith Bool Lia ZifyN ZifyNat ZifyBool Permutation Sorted.
Require Import Mixin.Base.Res Mixin.Gen.Consts Mixin.Model.SnapCodec Mixin.Proofs.Res Mixin.Proofs.Lists.
Import ListNotations.
Open Scope N_scope.

Lemma magic_val : magic = [119; 119]. Proof. reflexivity. Qed.
Lemma snap_version_val : snap_version = 2. Proof. reflexivity. Qed.
Lemma tx_max_val : tx_max = 255. Proof. reflexivity. Qed.
Lemma max_int_val : max_int = 65535. Proof. reflexivity. Qed.

Definition Bytes (l : list N) : Prop := Forall (fun x => x < 256) l.

Lemma bytes_ok_iff : forall l, bytes_ok l = true <-> Bytes l.
Proof.
  intros l. unfold bytes_ok, Bytes. rewrite forallb_forall, Forall_forall.
  split; intros H x Hx; apply N.ltb_lt, H, Hx.
Qed.

Lemma be_val_snoc l x : be_val (l ++ [x]) = be_val l * 256 + x.
Proof.
  unfold be_val. generalize 0. induction l as [|y l IH]; intros acc; cbn [be_val_acc app]; [reflexivity|apply IH].
Qed.

Lemma be_bytes_S n v : be_bytes (S n) v = be_bytes n (v / 256) ++ [v mod 256].
Proof.
  unfold be_bytes. cbn [be_bytes_acc]. generalize [v mod 256]. generalize (v / 256).
  induction n as [|n IH]; intros w acc; cbn [be_bytes_acc]; [reflexivity|].
  rewrite IH, (IH _ [_]), <- app_assoc. reflexivity.
Qed.

Lemma be_bytes_length n : forall v, length (be_bytes n v) = n.
Proof.
  induction n as [|n IH]; intros v; [reflexivity|].
  rewrite be_bytes_S, app_length, IH. apply Nat.add_1_r.
Qed.

Lemma be_bytes_Bytes : forall n v, Bytes (be_bytes n v).
Proof.
  induction n as [|n IH]; intros v; [constructor|].
  rewrite be_bytes_S. apply Forall_app. split; [apply IH|].
  constructor; [|constructor]. apply N.mod_lt. lia.
Qed.

Definition pow256 (n : nat) : N := 256 ^ N.of_nat n.

Lemma pow256_S n : pow256 (S n) = 256 * pow256 n.
Proof. unfold pow256. rewrite Nnat.Nat2N.inj_succ. apply N.pow_succ_r'. Qed.

Lemma pow256_pos : forall n, 0 < pow256 n.
Proof. intros n. unfold pow256. apply N.neq_0_lt_0. apply N.pow_nonzero. lia. Qed.

Lemma be_val_bytes n : forall v, v < pow256 n -> be_val (be_bytes n v) = v.
Proof.
  induction n as [|n IH]; intros v Hv; [change (pow256 0) with 1 in Hv; cbn; lia|].
  rewrite pow256_S in Hv. rewrite be_bytes_S, be_val_snoc, IH by (apply N.div_lt_upper_bound; lia).
  pose proof (N.div_mod v 256). lia.
Qed.

Lemma be_val_bound l : Bytes l -> be_val l < pow256 (length l).
Proof.
  induction l as [|x l IH] using rev_ind; intros Hb; [reflexivity|].
  apply Forall_app in Hb as [Hl Hx]. inversion Hx as [|? ? Hx256 _]; subst.
  rewrite be_val_snoc, app_length, Nat.add_1_r, pow256_S. specialize (IH Hl). lia.
Qed.

Lemma be_bytes_val l : Bytes l -> be_bytes (length l) (be_val l) = l.
Proof.
  induction l as [|x l IH] using rev_ind; intros Hb; [reflexivity|].
  apply Forall_app in Hb as [Hl Hx]. inversion Hx as [|? ? Hx256 _]; subst.
  rewrite app_length, Nat.add_1_r, be_bytes_S, be_val_snoc.
  rewrite <- (N.div_unique _ 256 (be_val l) x), <- (N.mod_unique _ 256 (be_val l) x), IH by (assumption || lia).
  reflexivity.
Qed.

(* [codec p enc ok]: the reader [p] and the encoder [enc] are inverse to each other on the
   values satisfying [ok]: [p] reads an encoding back, and whatever it reads from a
   string of bytes it has consumed the encoding of, leaving a string of bytes. *)
Definition codec {A} (p : list N -> rd A) (enc : A -> list N) (ok : A -> Prop) : Prop :=
  (forall v r, ok v -> p (enc v ++ r) = ROk v r) /\
  (forall l v r, p l = ROk v r -> Bytes l -> l = enc v ++ r /\ ok v /\ Bytes r).

Section Steps.
  Context {A : Type} {p : list N -> rd A} {enc : A -> list N} {ok : A -> Prop}.
  Hypothesis C : codec p enc ok.

  Lemma bind_app {B} (f : A -> list N -> rd B) v r : ok v -> rd_bind (p (enc v ++ r)) f = f v r.
  Proof. intros H. rewrite (proj1 C) by exact H. reflexivity. Qed.

  Lemma then_app {B} (f : A -> list N -> res B) v r : ok v -> rd_then (p (enc v ++ r)) f = f v r.
  Proof. intros H. rewrite (proj1 C) by exact H. reflexivity. Qed.

  Lemma bind_inv {B} {f : A -> list N -> rd B} {l y r'} : Bytes l -> rd_bind (p l) f = ROk y r' ->
    exists v r, l = enc v ++ r /\ ok v /\ Bytes r /\ f v r = ROk y r'.
  Proof.
    intros Hb H. destruct (p l) as [v r| |] eqn:E; try discriminate H.
    exists v, r. destruct (proj2 C _ _ _ E Hb) as (? & ? & ?). auto.
  Qed.

  Lemma then_inv {B} {f : A -> list N -> res B} {l y} : Bytes l -> rd_then (p l) f = Ok y ->
    exists v r, l = enc v ++ r /\ ok v /\ Bytes r /\ f v r = Ok y.
  Proof.
    intros Hb H. destruct (p l) as [v r| |] eqn:E; try discriminate H.
    exists v, r. destruct (proj2 C _ _ _ E Hb) as (? & ? & ?). auto.
  Qed.

  Lemma codec_inj v1 v2 r1 r2 : ok v1 -> ok v2 -> enc v1 ++ r1 = enc v2 ++ r2 -> v1 = v2 /\ r1 = r2.
  Proof.
    intros H1 H2 E. pose proof (proj1 C v1 r1 H1) as P. rewrite E, (proj1 C v2 r2 H2) in P.
    injection P as -> ->. auto.
  Qed.
End Steps.

Lemma take_inv n : forall l a r, take n l = Some (a, r) -> l = a ++ r /\ length a = n.
Proof.
  induction n as [|n IH]; intros l a r H; cbn [take] in H; [injection H as <- <-; easy|].
  destruct l as [|x l]; [discriminate|].
  destruct (take n l) as [[a' r']|] eqn:E; [|discriminate].
  injection H as <- <-. apply IH in E as [-> <-]. easy.
Qed.

Lemma take_app a r : take (length a) (a ++ r) = Some (a, r).
Proof. induction a as [|x a IH]; cbn [take length app]; [|rewrite IH]; reflexivity. Qed.

Lemma rd_read_codec n : n <> O -> codec (rd_read n) (fun a => a) (fun a => length a = n).
Proof.
  intros Hn. split.
  - intros a r <-. unfold rd_read. rewrite take_app. destruct a; [contradiction|reflexivity].
  - intros l a r H Hb. unfold rd_read in H. destruct l as [|x l]; [discriminate|].
    destruct (take n (x :: l)) as [[a' r']|] eqn:E; [|discriminate].
    injection H as <- <-. apply take_inv in E as [E L]. rewrite E in Hb.
    apply Forall_app in Hb as [_ Hr]. auto.
Qed.

Lemma rd_read_eof n l : rd_read n l = REof <-> l = [].
Proof.
  unfold rd_read. destruct l as [|x l]; [easy|]. destruct (take n (x :: l)) as [[a r]|]; easy.
Qed.

Lemma rd_uint_codec n : n <> O -> codec (rd_uint n) (be_bytes n) (fun v => v < pow256 n).
Proof.
  intros Hn. split; unfold rd_uint.
  - intros v r Hv. rewrite (bind_app (rd_read_codec n Hn)), be_val_bytes by (assumption || apply be_bytes_length).
    reflexivity.
  - intros l v r H Hb. pose proof Hb as Hb'.
    apply (bind_inv (rd_read_codec n Hn) Hb) in H as (a & r' & -> & <- & Hr & [= <- <-]).
    apply Forall_app in Hb' as [Ha _]. rewrite be_bytes_val by exact Ha. auto using be_val_bound.
Qed.

Lemma rd_uint_eof n l : rd_uint n l = REof <-> l = [].
Proof.
  unfold rd_uint, rd_bind. rewrite <- (rd_read_eof n l). destruct (rd_read n l); easy.
Qed.

Definition hash_bound : N := pow256 hash_len.
Definition sig_bound : N := pow256 sig_len.
Definition u64_bound : N := pow256 8.

Lemma rd_hash_codec : codec rd_hash (be_bytes hash_len) (fun v => v < hash_bound).
Proof. apply rd_uint_codec. discriminate. Qed.
Lemma rd_u64_codec : codec rd_u64 u64 (fun v => v < u64_bound).
Proof. apply (rd_uint_codec 8). discriminate. Qed.

Lemma rd_u16_codec : codec rd_u16 u16 (fun v => v < pow256 2).
Proof.
  assert (C : codec (rd_uint 2) u16 (fun v => v < pow256 2)) by (apply rd_uint_codec; discriminate).
  assert (E : forall l, rd_u16 l = rd_bind (rd_uint 2 l) (fun d r => if max_int <? d then RBad else ROk d r)).
  { intros l. unfold rd_u16, rd_uint. destruct (rd_read 2 l); reflexivity. }
  split.
  - intros v r Hv. rewrite E, (bind_app C) by exact Hv.
    replace (max_int <? v) with false; [reflexivity|]. rewrite max_int_val. change (pow256 2) with 65536 in Hv. lia.
  - intros l v r H Hb. rewrite E in H. apply (bind_inv C Hb) in H as (d & r' & -> & Hd & Hr & H).
    destruct (max_int <? d); [discriminate|]. injection H as <- <-. auto.
Qed.

Definition refs_ok (r : option (N * N)) : Prop :=
  match r with None => True | Some (a, b) => a < hash_bound /\ b < hash_bound end.

Lemma rd_refs_codec : codec rd_refs enc_refs refs_ok.
Proof.
  split; unfold rd_refs.
  - intros [[a b]|] r Hok; cbn [enc_refs refs_ok] in *.
    + destruct Hok. rewrite <- !app_assoc, (bind_app rd_u16_codec), !(bind_app rd_hash_codec) by easy.
      reflexivity.
    + rewrite (bind_app rd_u16_codec) by easy. reflexivity.
  - intros l rl r H Hb. apply (bind_inv rd_u16_codec Hb) in H as (rc & r0 & -> & _ & Hr0 & H).
    destruct (rc =? 0) eqn:E0; [injection H as <- <-; apply N.eqb_eq in E0 as ->; easy|].
    destruct (rc =? 2) eqn:E2; [apply N.eqb_eq in E2 as ->|discriminate].
    apply (bind_inv rd_hash_codec Hr0) in H as (a & r1 & -> & Ha & Hr1 & H).
    apply (bind_inv rd_hash_codec Hr1) in H as (b & r2 & -> & Hb' & Hr2 & [= <- <-]).
    cbn [enc_refs refs_ok]. rewrite <- !app_assoc. auto.
Qed.

Definition hashes_ok (l : list N) : Prop := Forall (fun x => x < hash_bound) l.

Lemma rd_hashes_codec k : codec (rd_hashes k) enc_hashes (fun hs => length hs = k /\ hashes_ok hs).
Proof.
  unfold enc_hashes. split.
  - intros hs r [<- Hok]. induction Hok as [|h hs Hh _ IH]; [reflexivity|].
    cbn [rd_hashes length flat_map]. rewrite <- app_assoc, (bind_app rd_hash_codec), IH by exact Hh. reflexivity.
  - induction k as [|k IH]; intros l hs r H Hb; cbn [rd_hashes] in H; [injection H as <- <-; repeat constructor; easy|].
    apply (bind_inv rd_hash_codec Hb) in H as (h & r0 & -> & Hh & Hr0 & H).
    destruct (rd_hashes k r0) as [hs' r1| |] eqn:Ek; try discriminate H. injection H as <- <-.
    apply IH in Ek as (-> & [<- Hok] & Hr); [|exact Hr0].
    cbn [flat_map length]. rewrite <- app_assoc. repeat constructor; assumption.
Qed.

Lemma enc_hashes_length : forall l, length (enc_hashes l) = (hash_len * length l)%nat.
Proof.
  induction l as [|x l IH]; [cbn; lia|].
  unfold enc_hashes in *. cbn [flat_map length]. rewrite app_length, be_bytes_length, IH. lia.
Qed.

Definition sig_ok (c : option (N * N)) : Prop :=
  match c with None => True | Some (m, sg) => 0 < m /\ m < u64_bound /\ sg < sig_bound end.

(* what [enc_cosi] writes when it does not panic *)
Definition cosi_bytes (c : option (N * N)) : list N :=
  match c with None => u64 0 | Some (m, sg) => u64 m ++ be_bytes sig_len sg end.

Lemma enc_cosi_ok c : sig_ok c -> enc_cosi c = Ok (cosi_bytes c).
Proof.
  destruct c as [[m sg]|]; [|reflexivity]. intros [Hm _]. cbn [enc_cosi cosi_bytes].
  replace (m =? 0) with false by lia. reflexivity.
Qed.

Lemma rd_cosi_codec : codec rd_cosi cosi_bytes sig_ok.
Proof.
  assert (Cs : codec (rd_uint sig_len) (be_bytes sig_len) (fun v => v < sig_bound))
    by (apply rd_uint_codec; discriminate).
  split; unfold rd_cosi.
  - intros [[m sg]|] r Hok; cbn [cosi_bytes sig_ok] in *.
    + destruct Hok as (Hm0 & Hm & Hs). rewrite <- app_assoc, (bind_app rd_u64_codec) by exact Hm.
      replace (m =? 0) with false by lia. rewrite (bind_app Cs) by exact Hs. reflexivity.
    + rewrite (bind_app rd_u64_codec) by easy. reflexivity.
  - intros l c r H Hb. apply (bind_inv rd_u64_codec Hb) in H as (m & r0 & -> & Hm & Hr0 & H).
    destruct (m =? 0) eqn:E0; [injection H as <- <-; apply N.eqb_eq in E0 as ->; easy|].
    apply (bind_inv Cs Hr0) in H as (sg & r1 & -> & Hs & Hr1 & [= <- <-]).
    cbn [cosi_bytes sig_ok]. rewrite <- app_assoc. repeat split; try assumption; lia.
Qed.

Lemma strictly_inc_cons x l :
  strictly_inc (x :: l) = true <->
  (match l with [] => True | y :: _ => x < y end) /\ strictly_inc l = true.
Proof.
  destruct l as [|y l]; cbn [strictly_inc]; [easy|]. rewrite andb_true_iff, N.ltb_lt. reflexivity.
Qed.

Lemma sinc_isort l : strictly_inc l = true -> isort l = l.
Proof.
  induction l as [|x l IH]; intros H; [reflexivity|].
  apply strictly_inc_cons in H as [Hh Hl]. cbn [isort]. rewrite IH by assumption.
  destruct l as [|y l]; [reflexivity|]. cbn [insert]. replace (x <=? y) with true by lia. reflexivity.
Qed.

Lemma sinc_no_dup l : strictly_inc l = true -> has_adj_dup l = false.
Proof.
  induction l as [|x l IH]; intros H; [reflexivity|].
  apply strictly_inc_cons in H as [Hh Hl]. destruct l as [|y l]; [reflexivity|].
  change (has_adj_dup (x :: y :: l)) with ((x =? y) || has_adj_dup (y :: l)).
  rewrite (IH Hl). replace (x =? y) with false by lia. reflexivity.
Qed.

Lemma isort_perm l : Permutation (isort l) l.
Proof.
  induction l as [|x l IH]; cbn [isort]; [constructor|]. rewrite <- IH at 2. generalize (isort l).
  induction l0 as [|z l0 IH0]; cbn [insert]; [reflexivity|]. destruct (x <=? z); [reflexivity|].
  rewrite IH0. apply perm_swap.
Qed.

Lemma In_isort l y : In y (isort l) <-> In y l.
Proof. split; apply Permutation_in; [|symmetry]; apply isort_perm. Qed.

Lemma isort_length l : length (isort l) = length l.
Proof. apply Permutation_length, isort_perm. Qed.

Lemma hashes_ok_isort l : hashes_ok l -> hashes_ok (isort l).
Proof. apply Permutation_Forall. symmetry. apply isort_perm. Qed.

Lemma insert_sinc x l : strictly_inc l = true -> ~ In x l -> strictly_inc (insert x l) = true.
Proof.
  induction l as [|z l IH]; intros Hs Hn; [reflexivity|].
  cbn [insert]. destruct (x <=? z) eqn:E.
  - apply strictly_inc_cons. split; [|assumption]. cbn [In] in Hn. lia.
  - apply strictly_inc_cons in Hs as [Hh Hl]. apply strictly_inc_cons. split.
    + destruct l as [|w l]; cbn [insert]; [lia|]. destruct (x <=? w); lia.
    + apply IH; [assumption|]. intros Hin. apply Hn. right. assumption.
Qed.

Lemma isort_sinc l : NoDup l -> strictly_inc (isort l) = true.
Proof.
  induction 1 as [|x l Hn _ IH]; [reflexivity|]. cbn [isort]. apply insert_sinc; [exact IH|].
  rewrite In_isort. exact Hn.
Qed.

Lemma sinc_sorted l : strictly_inc l = true -> StronglySorted N.lt l.
Proof.
  induction l as [|x l IH]; intros H; constructor; apply strictly_inc_cons in H as [Hh Hl].
  - exact (IH Hl).
  - specialize (IH Hl). destruct l as [|y l]; constructor; [exact Hh|].
    apply StronglySorted_inv in IH as [_ F]. eapply Forall_impl; [|exact F].
    intros z. apply N.lt_trans, Hh.
Qed.

Lemma sinc_NoDup : forall l, strictly_inc l = true -> NoDup l.
Proof.
  intros l H%sinc_sorted. induction H as [|x l _ IH F]; constructor; [|exact IH].
  intros Hin. rewrite Forall_forall in F. apply F in Hin. lia.
Qed.

Lemma isort_listing_order l1 l2 : NoDup l1 -> NoDup l2 ->
  (forall y, In y l1 <-> In y l2) -> isort l1 = isort l2.
Proof.
  intros N1 N2 Hin. apply (StronglySorted_unique N.lt).
  - intros a b _ _ Hab Hba. lia.
  - rewrite !isort_perm. apply NoDup_Permutation; assumption.
  - apply sinc_sorted, isort_sinc, N1.
  - apply sinc_sorted, isort_sinc, N2.
Qed.

Lemma list_eqb_eq a : forall b, list_eqb a b = true -> a = b.
Proof.
  induction a as [|x a IH]; intros [|y b] H; cbn [list_eqb] in H; try discriminate; [reflexivity|].
  apply andb_prop in H as [->%N.eqb_eq ->%IH]. reflexivity.
Qed.

Definition header : list N := magic ++ [0; snap_version].

Lemma check_snap_version_inv h : (check_snap_version h <? snap_version) = false -> length h = 4%nat ->
  h = header /\ check_snap_version h = snap_version.
Proof.
  intros Hv Hl. unfold check_snap_version in *.
  destruct (take 4 h) as [[a r]|] eqn:E; [|rewrite snap_version_val in Hv; discriminate].
  apply take_inv in E as [-> Ha]. rewrite app_length in Hl.
  destruct r; [|cbn [length] in Hl; lia]. rewrite app_nil_r in *.
  destruct (list_eqb a _) eqn:El; [|rewrite snap_version_val in Hv; discriminate]. apply list_eqb_eq in El. easy.
Qed.

Lemma check_snap_version_header r : check_snap_version (header ++ r) = snap_version.
Proof. unfold check_snap_version. rewrite (take_app header). reflexivity. Qed.

(* what the decoder guarantees of the snapshot it returns, beside the field ranges: the
   transaction hashes come strictly increasing.  The encoder sorts them itself and asks only
   that none is repeated: that is [wf] below, which [shape] implies ([accepted_wf]). *)
Definition shape (s : snapshot) : Prop :=
  (1 <= length (s_txs s) <= 255)%nat /\ strictly_inc (s_txs s) = true /\
  (s_round s = 0 -> length (s_txs s) = 1%nat /\ s_refs s = None) /\
  (s_round s <> 0 -> s_refs s <> None).

(* every field fits its Go type *)
Definition fields_ok (s : snapshot) : Prop :=
  s_node s < hash_bound /\ s_round s < u64_bound /\ refs_ok (s_refs s) /\
  hashes_ok (s_txs s) /\ s_ts s < u64_bound /\ sig_ok (s_sig s).

Lemma count_guard n : (1 <= n <= 255)%nat -> (N.of_nat n <? 1) || (tx_max <? N.of_nat n) = false.
Proof. rewrite tx_max_val. lia. Qed.

Lemma round_rule {A} rn n (rl : option A) :
  (if rn =? 0 then negb (Nat.eqb n 1) || is_some rl else negb (is_some rl)) = false <->
  (rn = 0 -> n = 1%nat /\ rl = None) /\ (rn <> 0 -> rl <> None).
Proof.
  destruct (N.eqb_spec rn 0) as [E|E], rl as [x|]; cbn [is_some negb];
    rewrite ?orb_true_r, ?orb_false_r, ?negb_false_iff, ?Nat.eqb_eq; intuition congruence.
Qed.

(* the optional topology suffix: nothing, or exactly eight bytes *)
Definition tail_dec (s : snapshot) (rest : list N) : res (snapshot * N) :=
  match rd_u64 rest with
  | REof => Ok (s, 0)
  | RBad => Err
  | ROk num r8 => match r8 with [] => Ok (s, num) | _ :: _ => Err end
  end.

Lemma tail_dec_nil s : tail_dec s [] = Ok (s, 0).
Proof. reflexivity. Qed.

Lemma tail_dec_u64 s t : t < u64_bound -> tail_dec s (u64 t) = Ok (s, t).
Proof.
  intros H. unfold tail_dec. rewrite <- (app_nil_r (u64 t)), (proj1 rd_u64_codec) by exact H. reflexivity.
Qed.

Lemma tail_dec_inv s r s' t : tail_dec s r = Ok (s', t) -> Bytes r ->
  s' = s /\ ((r = [] /\ t = 0) \/ (r = u64 t /\ t < u64_bound)).
Proof.
  unfold tail_dec. intros H Hb. destruct (rd_u64 r) as [num r8| |] eqn:E; [| |discriminate].
  - destruct r8; [|discriminate]. injection H as <- <-.
    apply (proj2 rd_u64_codec) in E as (-> & Hn & _); [|exact Hb]. rewrite app_nil_r. auto.
  - injection H as <- <-. apply rd_uint_eof in E. auto.
Qed.

Definition wf (s : snapshot) : Prop :=
  s_version s = snap_version /\
  (1 <= length (s_txs s) <= 255)%nat /\ NoDup (s_txs s) /\
  (s_round s = 0 -> length (s_txs s) = 1%nat /\ s_refs s = None) /\
  (s_round s <> 0 -> s_refs s <> None) /\
  fields_ok s.

Lemma dec_inv b s topo : dec_snapshot_with_topo b = Ok (s, topo) -> Bytes b ->
  s_version s = snap_version /\ shape s /\ fields_ok s /\
  exists r, b = enc_body s ++ cosi_bytes (s_sig s) ++ r /\ ((r = [] /\ topo = 0) \/ (r = u64 topo /\ topo < u64_bound)).
Proof.
  intros H Hb. unfold dec_snapshot_with_topo in H.
  apply (then_inv (rd_read_codec 4 ltac:(discriminate)) Hb) in H as (h & r0 & -> & Hh & Hb0 & H).
  cbv zeta in H. destruct (check_snap_version h <? snap_version) eqn:Ev; [discriminate|].
  destruct (check_snap_version_inv h Ev Hh) as [-> Ecv]. rewrite Ecv in H. clear Ev Ecv Hh Hb.
  apply (then_inv rd_hash_codec Hb0) in H as (node & r1 & -> & Hnode & Hb1 & H).
  apply (then_inv rd_u64_codec Hb1) in H as (rn & r2 & -> & Hrn & Hb2 & H).
  apply (then_inv rd_refs_codec Hb2) in H as (rl & r3 & -> & Hrl & Hb3 & H).
  apply (then_inv rd_u16_codec Hb3) in H as (tl & r4 & -> & _ & Hb4 & H).
  destruct ((tl <? 1) || (tx_max <? tl)) eqn:Etl; [discriminate|].
  apply (then_inv (rd_hashes_codec _) Hb4) in H as (txs & r5 & -> & [Hlen Htxs] & Hb5 & H).
  destruct (strictly_inc txs) eqn:Esi; [|discriminate]. cbn [negb] in H.
  destruct (if rn =? 0 then _ else _) eqn:Ern; [discriminate|]. apply round_rule in Ern.
  apply (then_inv rd_u64_codec Hb5) in H as (ts & r6 & -> & Hts & Hb6 & H).
  apply (then_inv rd_cosi_codec Hb6) in H as (cs & r7 & -> & Hcs & Hb7 & H).
  apply tail_dec_inv in H as [-> Hr7]; [|exact Hb7].
  assert (Hl : (1 <= length txs <= 255)%nat) by (rewrite tx_max_val in Etl; clear - Etl Hlen; lia).
  split; [reflexivity|]. split; [exact (conj Hl (conj Esi Ern))|]. split; [repeat split; assumption|].
  exists r7. split; [|exact Hr7]. unfold enc_body. cbn [s_version s_node s_round s_refs s_txs s_ts s_sig].
  rewrite (sinc_isort _ Esi), Hlen, N2Nat.id, <- !app_assoc. reflexivity.
Qed.

Lemma unmarshal_inv b s topo : unmarshal_snapshot b = Ok (s, topo) -> Bytes b ->
  s_version s = snap_version /\ shape s /\ fields_ok s /\
  exists r, b = enc_body s ++ cosi_bytes (s_sig s) ++ r /\ ((r = [] /\ topo = 0) \/ (r = u64 topo /\ topo < u64_bound)).
Proof.
  unfold unmarshal_snapshot. destruct (check_snap_version b <? snap_version); [discriminate|]. apply dec_inv.
Qed.

Lemma accepted_wf s : s_version s = snap_version -> shape s -> fields_ok s -> wf s.
Proof. intros Hv (Hlen & Hsi%sinc_NoDup & Hr0 & Hrn) Hf. unfold wf. auto 7. Qed.

Lemma enc_wf s : wf s ->
  enc_snapshot_payload s true = Ok (enc_body s ++ cosi_bytes (s_sig s)) /\
  forall topo, versioned_marshal s topo = Ok ((enc_body s ++ cosi_bytes (s_sig s)) ++ u64 topo).
Proof.
  intros (Hv & Hlen & Hnd & Hr0 & _ & _ & _ & _ & _ & _ & Hsig).
  assert (He : enc_snapshot_payload s true = Ok (enc_body s ++ cosi_bytes (s_sig s))).
  { unfold enc_snapshot_payload. cbv zeta. rewrite Hv, N.ltb_irrefl, (count_guard _ Hlen).
    rewrite (sinc_no_dup _ (isort_sinc _ Hnd)), (enc_cosi_ok _ Hsig).
    destruct (s_round s =? 0) eqn:Ez; [|reflexivity].
    apply N.eqb_eq in Ez. rewrite (proj1 (Hr0 Ez)). reflexivity. }
  split; [exact He|]. intros topo. unfold versioned_marshal, enc_snapshot_with_topo.
  rewrite Hv, N.eqb_refl, He. reflexivity.
Qed.

Lemma enc_payload_inv s ws p : enc_snapshot_payload s ws = Ok p ->
  exists c, p = enc_body s ++ c /\ (length (s_txs s) <= 255)%nat.
Proof.
  unfold enc_snapshot_payload. cbv zeta. intros H.
  destruct (s_version s <? snap_version); [discriminate|].
  destruct ((s_round s =? 0) && _); [discriminate|].
  destruct ((_ <? 1) || _) eqn:El; [discriminate|].
  destruct (negb ws && _); [discriminate|]. destruct (has_adj_dup _); [discriminate|].
  destruct (enc_cosi (s_sig s)) as [c| |]; cbn [bind] in H; try discriminate.
  exists c. rewrite tx_max_val in El. split; [congruence|lia].
Qed.

Lemma canonical : forall b s topo,
  unmarshal_snapshot b = Ok (s, topo) -> Bytes b ->
  exists e, enc_snapshot_payload s true = Ok e /\
            versioned_marshal s topo = Ok (e ++ u64 topo) /\
            ((b = e /\ topo = 0) \/ b = e ++ u64 topo).
Proof.
  intros b s topo H Hb. destruct (unmarshal_inv b s topo H Hb) as (Hv & Hshape & Hf & r & -> & Hr).
  destruct (enc_wf s (accepted_wf s Hv Hshape Hf)) as [He Hm].
  exists (enc_body s ++ cosi_bytes (s_sig s)). split; [exact He|]. split; [apply Hm|].
  rewrite app_assoc. destruct Hr as [[-> ->]|[-> _]]; [left; rewrite app_nil_r|right]; auto.
Qed.

(* the snapshot with its transactions in increasing order (what the encoder writes) *)
Definition canon (s : snapshot) : snapshot :=
  MkSnap (s_version s) (s_node s) (s_round s) (s_refs s) (isort (s_txs s)) (s_ts s) (s_sig s).

Lemma dec_enc s rest : wf s ->
  dec_snapshot_with_topo (enc_body s ++ cosi_bytes (s_sig s) ++ rest) = tail_dec (canon s) rest.
Proof.
  intros (Hv & Hlen & Hnd & Hr0 & Hrn & Hnode & Hround & Hrefs & Htxs & Hts & Hsig).
  unfold dec_snapshot_with_topo, enc_body. rewrite Hv, (app_assoc magic). fold header. rewrite <- !app_assoc.
  rewrite (then_app (rd_read_codec 4 ltac:(discriminate)) _ header) by reflexivity. cbv zeta.
  replace (check_snap_version header) with snap_version by reflexivity. rewrite N.ltb_irrefl.
  rewrite (then_app rd_hash_codec), (then_app rd_u64_codec), (then_app rd_refs_codec) by assumption.
  rewrite (then_app rd_u16_codec), (count_guard _ Hlen) by (change (pow256 2) with 65536; lia).
  rewrite (then_app (rd_hashes_codec _)) by (rewrite Nat2N.id, isort_length; auto using hashes_ok_isort).
  rewrite (isort_sinc _ Hnd), (proj2 (round_rule _ _ _)) by (rewrite isort_length; auto).
  rewrite (then_app rd_u64_codec), (then_app rd_cosi_codec) by assumption.
  unfold tail_dec, canon. rewrite Hv. reflexivity.
Qed.

Lemma roundtrip : forall s topo, wf s -> topo < u64_bound ->
  exists e, enc_snapshot_payload s true = Ok e /\
            versioned_marshal s topo = Ok (e ++ u64 topo) /\
            unmarshal_snapshot (e ++ u64 topo) = Ok (canon s, topo) /\
            unmarshal_snapshot e = Ok (canon s, 0).
Proof.
  intros s topo Hwf Htopo. destruct (enc_wf s Hwf) as [He Hm].
  assert (Hu : forall r, unmarshal_snapshot (enc_body s ++ cosi_bytes (s_sig s) ++ r) = tail_dec (canon s) r).
  { intros r. unfold unmarshal_snapshot. rewrite dec_enc by exact Hwf.
    unfold enc_body. rewrite (proj1 Hwf), (app_assoc magic). fold header.
    rewrite <- !app_assoc, check_snap_version_header, N.ltb_irrefl. reflexivity. }
  exists (enc_body s ++ cosi_bytes (s_sig s)). split; [exact He|]. split; [apply Hm|].
  rewrite <- (app_nil_r (_ ++ cosi_bytes _)) at 2. rewrite <- !app_assoc, !Hu.
  split; [apply tail_dec_u64, Htopo|apply tail_dec_nil].
Qed.

Definition payload_fields (s : snapshot) : N * N * N * option (N * N) * list N * N :=
  (s_version s, s_node s, s_round s, s_refs s, isort (s_txs s), s_ts s).

Definition pfields_ok (s : snapshot) : Prop :=
  s_node s < hash_bound /\ s_round s < u64_bound /\ refs_ok (s_refs s) /\
  hashes_ok (s_txs s) /\ s_ts s < u64_bound.

Definition with_sig (s : snapshot) (c : option (N * N)) : snapshot :=
  MkSnap (s_version s) (s_node s) (s_round s) (s_refs s) (s_txs s) (s_ts s) c.

Definition with_txs (s : snapshot) (txs : list N) : snapshot :=
  MkSnap (s_version s) (s_node s) (s_round s) (s_refs s) txs (s_ts s) (s_sig s).

Lemma enc_body_with_sig : forall s c, enc_body (with_sig s c) = enc_body s.
Proof. intros s c. reflexivity. Qed.

Lemma versioned_payload_with_sig : forall s c, versioned_payload (with_sig s c) = versioned_payload s.
Proof. intros s c. reflexivity. Qed.

Lemma payload_fields_with_sig : forall s c, payload_fields (with_sig s c) = payload_fields s.
Proof. intros s c. reflexivity. Qed.

Lemma payload_injective : forall s1 s2 p, pfields_ok s1 -> pfields_ok s2 ->
  enc_snapshot_payload (strip_sig s1) false = Ok p ->
  enc_snapshot_payload (strip_sig s2) false = Ok p ->
  payload_fields s1 = payload_fields s2.
Proof.
  intros s1 s2 p (Hn1 & Hr1 & Hf1 & Ht1 & Hs1) (Hn2 & Hr2 & Hf2 & Ht2 & Hs2) E1 E2.
  apply enc_payload_inv in E1 as (c1 & -> & L1). apply enc_payload_inv in E2 as (c2 & E & L2).
  unfold enc_body, strip_sig in *. cbn [s_version s_node s_round s_refs s_txs s_ts] in *.
  rewrite <- !app_assoc in E. apply app_inv_head in E.
  apply (codec_inj (rd_read_codec 2 ltac:(discriminate))) in E as [[= Ev] E]; [|reflexivity..].
  apply (codec_inj rd_hash_codec) in E as [En E]; [|assumption..].
  apply (codec_inj rd_u64_codec) in E as [Er E]; [|assumption..].
  apply (codec_inj rd_refs_codec) in E as [Erl E]; [|assumption..].
  apply (codec_inj rd_u16_codec) in E as [Ec%Nat2N.inj E]; [|change (pow256 2) with 65536; lia..].
  apply (codec_inj (rd_hashes_codec (length (s_txs s1)))) in E as [Et E];
    [|rewrite ?Ec, isort_length; auto using hashes_ok_isort..].
  apply (codec_inj rd_u64_codec) in E as [Ets _]; [|assumption..].
  unfold payload_fields. congruence.
Qed.

Lemma versioned_payload_fields : forall s1 s2,
  payload_fields s1 = payload_fields s2 -> versioned_payload s1 = versioned_payload s2.
Proof.
  intros s1 s2 Hf. unfold payload_fields in Hf. injection Hf as Ev En Er Erl Et Ets.
  pose proof (isort_length (s_txs s1)) as El. rewrite Et, isort_length in El.
  unfold versioned_payload, enc_snapshot_payload, enc_body, strip_sig. cbv zeta.
  cbn [s_version s_node s_round s_refs s_txs s_ts s_sig].
  rewrite Ev, En, Er, Erl, Et, Ets, El. reflexivity.
Qed.

Lemma payload_hash_is_H_of_payload (H : list N -> N) : forall s h, payload_hash H s = Ok h ->
  exists p, enc_snapshot_payload (strip_sig s) false = Ok p /\ h = H p /\ s_version s = snap_version.
Proof.
  intros s h (p & E & ->)%rmap_ok. exists p. unfold versioned_payload in E.
  destruct (N.eqb_spec (s_version s) snap_version); [auto|discriminate E].
Qed.

Lemma then_no_panic {A B} (r : rd A) (f : A -> list N -> res B) :
  (forall a l, f a l <> Panic) -> rd_then r f <> Panic.
Proof. intros Hf. destruct r; [apply Hf|discriminate|discriminate]. Qed.

(* a failed read or test is an error; only the encoder panics *)
Lemma unmarshal_no_panic : forall b, unmarshal_snapshot b <> Panic.
Proof.
  intros b. unfold unmarshal_snapshot. destruct (check_snap_version b <? snap_version); [discriminate|].
  apply then_no_panic; intros h r0. cbv zeta. destruct (check_snap_version h <? snap_version); [discriminate|].
  do 4 (apply then_no_panic; intros ? ?). destruct (orb _ _); [discriminate|].
  apply then_no_panic; intros txs r5. destruct (negb _); [discriminate|].
  destruct (if N.eqb _ 0 then _ else _); [discriminate|].
  do 2 (apply then_no_panic; intros ? ?). destruct (rd_u64 _) as [? [|]| |]; discriminate.
Qed.
