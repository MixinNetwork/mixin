(* Lemmas about Model/SchnorrAlg.v: the Schnorr verification equation and the
   random-linear-combination batch equation, as congruences modulo l. *)
From Coq Require Import List ZArith Bool Lia Znumtheory.
Require Import Mixin.Model.SchnorrAlg Mixin.Proofs.Group.
Import ListNotations.
Open Scope Z_scope.

Section AlgProofs.
Variable l : Z.

Lemma verify_ch_spec : forall k a r s,
  verify_ch l k a r s = true <-> (0 <= s < l /\ cg l s (r + k * a)).
Proof.
  intros k a r s. unfold verify_ch, canonical.
  rewrite !andb_true_iff, Z.leb_le, Z.ltb_lt, Z.eqb_eq, <- cg_iff.
  split; intros [Hs E]; (split; [exact Hs|]).
  - rewrite <- E. cg_ring.
  - rewrite E. cg_ring.
Qed.

Lemma verify_ch_unique_s : forall k a r, 0 < l ->
  verify_ch l k a r ((r + k * a) mod l) = true /\
  forall s, verify_ch l k a r s = true -> s = (r + k * a) mod l.
Proof.
  intros k a r Hl. pose proof (Z.mod_pos_bound (r + k * a) l Hl) as Hb. split.
  - apply verify_ch_spec. split; [exact Hb | apply cg_mod].
  - intros s Hs. apply verify_ch_spec in Hs. destruct Hs as [Hs E].
    apply (cg_small l); [exact Hs | exact Hb |]. rewrite E. symmetry. apply cg_mod.
Qed.

Lemma unique_accepting_challenge : forall a r s k k',
  prime l -> a mod l <> 0 ->
  verify_ch l k a r s = true -> verify_ch l k' a r s = true ->
  k mod l = k' mod l.
Proof.
  intros a r s k k' Hp Ha H1 H2.
  apply verify_ch_spec, proj2 in H1. apply verify_ch_spec, proj2 in H2.
  (* r + k.a and r + k'.a are both s: cancel r, then a *)
  apply cg_iff, (cg_cancel l a); [exact Hp | exact Ha |].
  apply (cg_add_cancel_l l r). rewrite !(Z.mul_comm a), <- H1. exact H2.
Qed.

Lemma accepting_challenge_determined : forall a r s k,
  prime l -> a mod l <> 0 -> verify_ch l k a r s = true ->
  forall k', verify_ch l k' a r s = true <-> (0 <= s < l /\ k' mod l = k mod l).
Proof.
  intros a r s k Hp Ha Hk k'. split.
  - intro Hk'. split; [apply verify_ch_spec in Hk'; apply Hk'|].
    exact (unique_accepting_challenge a r s k' k Hp Ha Hk' Hk).
  - intros [Hs Hm]. apply verify_ch_spec. split; [exact Hs|].
    apply verify_ch_spec in Hk. apply cg_iff in Hm. rewrite Hm. apply Hk.
Qed.

(* [delta e] = R + k.A - s is 0 mod l iff the entry verifies; [lin zs es] is
   the sum of the z_i.delta e_i, the batch equation before the cofactor 8 *)
Definition delta (e : entry) : Z := e_r e + e_k e * e_a e - e_s e.
Definition lin (zs : list Z) (es : list entry) : Z :=
  - sum_zs zs es + sum_zr zs es + sum_zka zs es.

Lemma lin_cons : forall z zs e es, lin (z :: zs) (e :: es) = z * delta e + lin zs es.
Proof. intros. unfold lin, delta. cbn [sum_zs sum_zr sum_zka]. ring. Qed.

Lemma lin_nil_r : forall zs, lin zs [] = 0.
Proof. intros. unfold lin. destruct zs; reflexivity. Qed.
Lemma lin_nil_l : forall es, lin [] es = 0.
Proof. intros. unfold lin. reflexivity. Qed.

Lemma lin_app : forall zs1 es1 zs2 es2, length zs1 = length es1 ->
  lin (zs1 ++ zs2) (es1 ++ es2) = lin zs1 es1 + lin zs2 es2.
Proof.
  induction zs1 as [|z zs1 IH]; intros es1 zs2 es2 Hlen.
  - destruct es1; [|discriminate]. cbn [app]. rewrite lin_nil_l. ring.
  - destruct es1 as [|e es1]; [discriminate|]. cbn [app]. rewrite !lin_cons.
    rewrite IH by (cbn in Hlen; lia). ring.
Qed.

Lemma entry_ok_spec : forall e,
  entry_ok l e = true <-> (0 <= e_s e < l /\ cg l (delta e) 0).
Proof. intros e. unfold entry_ok, delta. rewrite verify_ch_spec, (cg_sub_0 l (e_s e)). reflexivity. Qed.

Lemma lin_valid : forall es, Forall (fun e => entry_ok l e = true) es ->
  forall zs, cg l (lin zs es) 0.
Proof.
  intros es HF. induction HF as [|e es He _ IH]; intros zs.
  - rewrite lin_nil_r. reflexivity.
  - destruct zs as [|z zs]; [rewrite lin_nil_l; reflexivity|].
    apply entry_ok_spec in He. rewrite lin_cons, (proj2 He), IH. cg_ring.
Qed.

Lemma batch_check_spec : forall zs es,
  batch_check l zs es = true <->
  (Forall (fun e => 0 <= e_s e < l) es /\ cg l (8 * lin zs es) 0).
Proof.
  intros zs es. unfold batch_check. fold (lin zs es).
  rewrite andb_true_iff, forallb_forall, Forall_forall, Z.eqb_eq, <- cg_zero_mod.
  split; intros [H1 H2]; (split; [|assumption]); intros e He; specialize (H1 e He);
    unfold canonical in *; lia.
Qed.

Lemma batch_check_complete : forall es zs,
  Forall (fun e => entry_ok l e = true) es -> batch_check l zs es = true.
Proof.
  intros es zs HF. apply batch_check_spec. split.
  - eapply Forall_impl; [|exact HF]. intros e He. apply entry_ok_spec in He. apply He.
  - rewrite (lin_valid es HF zs). cg_ring.
Qed.

(* soundness, without probabilities: whatever the other coefficients, an invalid
   entry passes for at most one value mod l of its own, and crypto/batch.go draws
   each z_i as a random 128-bit scalar *)
Lemma batch_check_sound : forall pre e post zpre zpost z z',
  prime l -> l <> 2 ->
  length zpre = length pre ->
  entry_ok l e = false ->
  batch_check l (zpre ++ z :: zpost) (pre ++ e :: post) = true ->
  batch_check l (zpre ++ z' :: zpost) (pre ++ e :: post) = true ->
  z mod l = z' mod l.
Proof.
  intros pre e post zpre zpost z z' Hp H2 Hlen Hbad B1 B2.
  assert (Hl : 2 <= l) by exact (prime_ge_2 _ Hp).
  apply batch_check_spec in B1, B2. destruct B1 as [Hcan D1]. destruct B2 as [_ D2].
  rewrite lin_app, lin_cons in D1, D2 by assumption.
  assert (Hnd : delta e mod l <> 0).
  { intro Hd. rewrite (proj2 (entry_ok_spec e)) in Hbad; [discriminate|].
    split; [|apply cg_zero_mod; exact Hd]. rewrite Forall_forall in Hcan. apply Hcan, in_elt. }
  assert (H8 : 8 mod l <> 0).
  { intro Hd. apply Z.mod_divide in Hd; [|lia]. change 8 with (2 * (2 * 2)) in Hd.
    do 2 (apply prime_mult in Hd; [|exact Hp]; destruct Hd as [Hd|Hd]; [apply Z.divide_pos_le in Hd; lia|]).
    apply Z.divide_pos_le in Hd; lia. }
  (* the two batch equations differ by 8.delta.(z - z'); l is an odd prime and
     does not divide delta: cancel the rest of the sum, then 8, then delta *)
  apply cg_iff, (cg_cancel l (delta e) _ _ Hp Hnd), (cg_cancel l 8 _ _ Hp H8),
    (cg_add_cancel_l l (8 * (lin zpre pre + lin zpost post))).
  transitivity 0; [rewrite <- D1 | rewrite <- D2]; cg_ring.
Qed.

End AlgProofs.
