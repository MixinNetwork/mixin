(* Lemmas about Model/GhostKey.v: arithmetic in Z_l for an arbitrary modulus. *)
From Coq Require Import ZArith Lia.
Require Import Mixin.Model.GhostKey.
Open Scope Z_scope.

Section GhostProofs.
  Variable l : Z.
  Variable hs : Z -> Z -> Z.
  Hypothesis l_pos : 0 < l.

  Lemma shared_point : forall r a, smul l a (pub l r) = smul l r (pub l a).
  Proof.
    intros r a. unfold smul, pub. rewrite !Z.mul_mod_idemp_r by lia.
    f_equal. apply Z.mul_comm.
  Qed.

  Lemma ghost_match : forall r a b i,
    pub l (derive_private l hs (pub l r) a b i) = derive_public l hs r (pub l a) (pub l b) i.
  Proof.
    intros r a b i. unfold derive_private, derive_public.
    rewrite (shared_point r a). unfold padd, pub.
    rewrite Z.mod_mod, Z.add_mod_idemp_l, Z.add_mod_idemp_r by lia.
    f_equal. apply Z.add_comm.
  Qed.

  Lemma ghost_view : forall r a b i,
    view l hs (derive_public l hs r (pub l a) (pub l b) i) a (pub l r) i = pub l b.
  Proof.
    intros r a b i. unfold view, derive_public.
    rewrite (shared_point r a).
    set (x := hs (smul l r (pub l a)) i). unfold padd, psub, pub.
    rewrite Zminus_mod_idemp_l.
    replace (b mod l + x mod l - x mod l) with (b mod l) by lia.
    apply Z.mod_mod. lia.
  Qed.

  Lemma derive_private_range : forall R a b i, 0 <= derive_private l hs R a b i < l.
  Proof. intros. unfold derive_private. apply Z.mod_pos_bound. exact l_pos. Qed.

  Lemma ghost_index_separates : forall r A B i j,
    pub l (hs (smul l r A) i) <> pub l (hs (smul l r A) j) ->
    derive_public l hs r A (pub l B) i <> derive_public l hs r A (pub l B) j.
  Proof.
    intros r A B i j Hne Heq. apply Hne. unfold derive_public, padd, pub in *.
    set (x := hs (smul l r A) i) in *. set (y := hs (smul l r A) j) in *.
    rewrite <- !Z.add_mod in Heq by lia.
    rewrite <- (Z.add_simpl_l B x), <- (Z.add_simpl_l B y).
    now rewrite (Zminus_mod (B + x)), (Zminus_mod (B + y)), Heq.
  Qed.
End GhostProofs.
