(* Lemmas about Model/Threshold.v: what an accepted input authorization implies. *)
From Coq Require Import List ZArith NArith Bool Lia ZifyBool.
Require Import Mixin.Base.Res Mixin.Gen.Consts Mixin.Model.Threshold Mixin.Proofs.Lists.
Require Import Mixin.Proofs.Res.
Import ListNotations.
Open Scope Z_scope.

Fixpoint increasing_from (prev : Z) (l : list Z) : Prop :=
  match l with
  | [] => True
  | s :: r => prev < s /\ increasing_from s r
  end.

Definition count_in_window (signers : list Z) (lo hi : Z) : Z :=
  len (filter (fun s => (lo <=? s) && (s <? hi)) signers).

Definition offset_of (us : list utxo) (i : nat) : Z :=
  len (concat (map ukeys (firstn i us))).

Definition all_keys (us : list utxo) : list key := concat (map ukeys us).

Lemma len_app : forall (A : Type) (a b : list A), len (a ++ b) = len a + len b.
Proof. intros. unfold len. rewrite app_length. lia. Qed.

Lemma script_validate_spec : forall s sum,
  script_validate s sum = true ->
  exists t, script_threshold s = Some t /\ 0 <= t <= Consts.ThrOperator64 /\ t <= sum /\
            s = [Z.to_N Consts.ThrOperatorCmp; Z.to_N Consts.ThrOperatorSum; Z.to_N t].
Proof.
  intros s sum H. unfold script_validate in H. apply andb_true_iff in H. destruct H as [Hf Hs].
  unfold script_threshold. rewrite Hf.
  destruct s as [|a [|b [|c [|d s']]]]; try discriminate.
  exists (Z.of_N c). unfold script_verify_format in Hf.
  repeat split; try lia. repeat (f_equal; try lia).
Qed.

Lemma script_validate_complete : forall s t sum,
  script_threshold s = Some t -> t <= sum -> script_validate s sum = true.
Proof.
  intros s t sum Ht Hs. unfold script_threshold in Ht. unfold script_validate.
  destruct (script_verify_format s); [|discriminate].
  destruct s as [|a [|b [|c [|d s']]]]; try discriminate.
  injection Ht as <-. cbn [andb]. lia.
Qed.

Lemma signers_ordered_increasing : forall l prev,
  signers_ordered prev l = true -> increasing_from prev l.
Proof.
  induction l as [|s r IH]; intros prev H; cbn in *; [exact I|].
  destruct ((s <=? prev) || (Consts.ThrMaximumEncodingInt <? s)) eqn:E; [discriminate|].
  split; [lia | apply IH; assumption].
Qed.

Lemma increasing_lower : forall l prev, increasing_from prev l -> Forall (fun s => prev < s) l.
Proof.
  induction l as [|s r IH]; intros prev H; [constructor|]. destruct H as [H1 H2].
  constructor; [exact H1|]. eapply Forall_impl; [|apply IH; exact H2]. cbn. intros; lia.
Qed.

Lemma collect_signers_spec : forall signers prev publics sel,
  collect_signers prev signers publics = Some sel ->
  map fst sel = signers /\ increasing_from prev signers /\
  Forall (fun s => s < len publics) signers /\
  Forall (fun e => nth_error publics (Z.to_nat (fst e)) = Some (snd e)) sel.
Proof.
  induction signers as [|i rest IH]; intros prev publics sel H; cbn [collect_signers] in H.
  - injection H as <-. repeat split; constructor.
  - destruct (i <=? prev) eqn:E1; [discriminate|].
    destruct (len publics <=? i) eqn:E2; [discriminate|].
    destruct (nth_error publics (Z.to_nat i)) as [p|] eqn:Hn; [|discriminate].
    destruct (collect_signers i rest publics) as [sel'|] eqn:Hc; [|discriminate].
    injection H as <-. destruct (IH _ _ _ Hc) as (Hm & Hi & Hr & Hs).
    cbn [map fst]. repeat split; [rewrite Hm; reflexivity | lia | assumption | |];
      constructor; (lia || assumption).
Qed.

Lemma aggregate_verify_ok : forall (S : Type) (aggv : S -> list (Z * N) -> bool) sg publics signers,
  aggregate_verify aggv sg publics signers = true ->
  Forall (fun s => 0 <= s < len publics) signers /\
  exists sel, aggv sg sel = true /\ map fst sel = signers /\
              Forall (fun e => nth_error publics (Z.to_nat (fst e)) = Some (snd e)) sel.
Proof.
  intros S aggv sg publics signers H. unfold aggregate_verify in H.
  destruct (collect_signers (-1) signers publics) as [sel|] eqn:Hc; [|destruct signers; discriminate H].
  destruct (collect_signers_spec _ _ _ _ Hc) as (Hm & Hi & Hlt & Hsel). split.
  - apply increasing_lower in Hi. rewrite Forall_forall in Hi, Hlt. apply Forall_forall. intros s Hin.
    specialize (Hlt s Hin). specialize (Hi s Hin). lia.
  - exists sel. destruct signers; [discriminate H|]. repeat split; assumption.
Qed.

Lemma count_cons : forall s r lo hi,
  count_in_window (s :: r) lo hi =
  Z.b2z ((lo <=? s) && (s <? hi)) + count_in_window r lo hi.
Proof.
  intros. unfold count_in_window, len. cbn [filter].
  destruct ((lo <=? s) && (s <? hi)); cbn [length Z.b2z]; lia.
Qed.

Lemma count_none_above : forall l lo hi, Forall (fun s => hi <= s) l -> count_in_window l lo hi = 0.
Proof.
  intros l lo hi H. induction H as [|s r Hs _ IH]; [reflexivity|]. rewrite count_cons, IH. lia.
Qed.

Lemma count_split : forall l lo mid hi, lo <= mid <= hi ->
  count_in_window l lo hi = count_in_window l lo mid + count_in_window l mid hi.
Proof.
  intros l lo mid hi Hm. induction l as [|s r IH]; [reflexivity|]. rewrite !count_cons, IH. lia.
Qed.

Section KeySigs.
Variable S : Type.

Definition ptrs (ks : keysigs S) : list N := map (fun e => kptr (fst e)) ks.

Lemma ks_set_fresh : forall k v (m : keysigs S),
  ~ In (kptr k) (ptrs m) -> ks_set k v m = m ++ [(k, v)].
Proof.
  induction m as [|[k' v'] m IH]; intro H; cbn [ks_set app]; [reflexivity|].
  cbn in H. destruct (N.eqb_spec (kptr k') (kptr k)) as [E|E]; [tauto|].
  rewrite IH; tauto.
Qed.

Lemma ks_set_length : forall k v (m : keysigs S),
  (length m <= length (ks_set k v m))%nat /\ (1 <= length (ks_set k v m))%nat.
Proof.
  induction m as [|[k' v'] m IH]; cbn [ks_set]; [cbn; lia|].
  destruct (kptr k' =? kptr k)%N; cbn [length]; lia.
Qed.

(* the same pointer reached twice overwrites, and the earlier signature is gone:
   what C02_threshold_map_shared_pointer_refuted turns on *)
Lemma ks_set_overwrites : forall k k' v v' (m : keysigs S),
  kptr k = kptr k' -> ks_set k' v' (ks_set k v m) = ks_set k v' m.
Proof.
  intros k k' v v' m E. induction m as [|[k0 v0] m IH]; cbn [ks_set].
  - rewrite E, N.eqb_refl. reflexivity.
  - destruct (kptr k0 =? kptr k)%N eqn:E0; cbn [ks_set]; rewrite <- E, E0; [reflexivity|].
    rewrite IH. reflexivity.
Qed.

Lemma validate_utxo_ok : forall i u (sigs : list (sigmap S)) ag txType ks off ks',
  validate_utxo i u sigs ag txType ks off = Ok ks' ->
  if is_script_type (utype u) then
    match ag with
    | Some signers =>
        validate_aggregated_signers signers = true /\
        exists cnt, agg_window signers off (off + len (ukeys u)) (ukeys u) ks 0 = Ok (ks', cnt) /\
                    script_validate (uscript u) cnt = true
    | None =>
        exists m, nth_error sigs i = Some m /\ map_collect m (ukeys u) ks = Ok ks' /\
                  script_validate (uscript u) (len m) = true
    end
  else ks' = ks.
Proof.
  intros i u sigs ag txType ks off ks' H. unfold validate_utxo in H.
  destruct (is_script_type (utype u)); [destruct ag as [signers|]|].
  - destruct (validate_aggregated_signers signers); [|discriminate H]. split; [reflexivity|].
    apply bind_ok in H. destruct H as ([ks1 cnt] & Hw & H). do 2 res_step H. eauto.
  - res_step H. apply bind_ok in H. destruct H as (ks1 & Hc & H). do 2 res_step H. eauto.
  - repeat res_step H; reflexivity.
Qed.

(* every entry of the map lands in [ks], under the key it indexes *)
Definition collected (m : sigmap S) (keys : list key) (ks : keysigs S) : Prop :=
  forall j sg, In (j, sg) m ->
    Z.of_N j < len keys /\ exists k, nth_error keys (N.to_nat j) = Some k /\ In (k, sg) ks.

Lemma collected_incl : forall (m : sigmap S) keys ks ks',
  collected m keys ks -> incl ks ks' -> collected m keys ks'.
Proof.
  intros m keys ks ks' Hc Hi j sg Hj. destruct (Hc j sg Hj) as (Hr & k & Hk & Hin).
  split; [exact Hr|]. exists k. split; [exact Hk | exact (Hi _ Hin)].
Qed.

Lemma map_collect_spec : forall (m : sigmap S) keys ks ks',
  NoDup (map fst m) -> NoDup (map kptr keys) ->
  (forall j sg k, In (j, sg) m -> nth_error keys (N.to_nat j) = Some k -> ~ In (kptr k) (ptrs ks)) ->
  map_collect m keys ks = Ok ks' ->
  exists ents, ks' = ks ++ ents /\ incl (ptrs ents) (map kptr keys) /\ collected m keys ents.
Proof.
  induction m as [|[i sg] m IH]; intros keys ks ks' Hm Hk Hfresh H; cbn [map_collect] in H.
  - injection H as <-. exists []. rewrite app_nil_r. split; [reflexivity|]. split; [intros ? [] | intros ? ? []].
  - destruct (len keys <=? Z.of_N i) eqn:Hi; [discriminate|].
    destruct (nth_error keys (N.to_nat i)) as [k|] eqn:Hn; [|discriminate].
    cbn [map fst] in Hm. apply NoDup_cons_iff in Hm. destruct Hm as [Hnin Hm].
    rewrite ks_set_fresh in H by (eapply Hfresh; [left; reflexivity | exact Hn]).
    apply IH in H; [| assumption | assumption |].
    + destruct H as (ents & -> & Hp & Hc). exists ((k, sg) :: ents). rewrite <- app_assoc.
      split; [reflexivity|]. split.
      * intros p [<-|Hin]; [apply in_map; eapply nth_error_In; exact Hn | exact (Hp p Hin)].
      * intros j sg' [[= <- <-]|Hj]; [|exact (collected_incl _ _ _ _ Hc (incl_tl _ (incl_refl _)) j sg' Hj)].
        split; [lia|]. exists k. split; [exact Hn | left; reflexivity].
    + intros j sg' k' Hin Hn' Hp. unfold ptrs in Hp. rewrite map_app, in_app_iff in Hp.
      destruct Hp as [Hp|[Hp|[]]]; [exact (Hfresh j sg' k' (or_intror Hin) Hn' Hp)|].
      (* the pointers of [keys] are distinct, so j is the head index i *)
      apply Hnin. rewrite (N2Nat.inj _ _ (NoDup_map_nth_error_inj _ _ kptr keys _ _ _ _ Hk Hn Hn' Hp)).
      exact (in_map fst _ _ Hin).
Qed.

(* what an accepted script input guarantees under signature maps: its own map
   reaches the threshold and every entry of it was collected *)
Definition map_facts (sigs : list (sigmap S)) (ks : keysigs S) (i : nat) (u : utxo) : Prop :=
  exists m, nth_error sigs i = Some m /\ script_validate (uscript u) (len m) = true /\
            collected m (ukeys u) ks.

Lemma validate_utxo_map : forall i u (sigs : list (sigmap S)) txType ks off ks',
  Forall (fun m => NoDup (map fst m)) sigs -> NoDup (map kptr (ukeys u)) ->
  (forall k, In k (ukeys u) -> ~ In (kptr k) (ptrs ks)) ->
  validate_utxo i u sigs None txType ks off = Ok ks' ->
  exists ents, ks' = ks ++ ents /\ incl (ptrs ents) (map kptr (ukeys u)) /\
               (is_script_type (utype u) = true -> map_facts sigs ents i u).
Proof.
  intros i u sigs txType ks off ks' Hwf Hnd Hfresh H. apply validate_utxo_ok in H.
  destruct (is_script_type (utype u)).
  - destruct H as (m & Hm & Hc & Hsv). apply map_collect_spec in Hc; [| | exact Hnd |].
    + destruct Hc as (ents & E & Hp & Hc). exists ents. unfold map_facts. eauto 7.
    + rewrite Forall_forall in Hwf. apply Hwf. eapply nth_error_In. exact Hm.
    + intros j sg k _ Hn. apply Hfresh. eapply nth_error_In. exact Hn.
  - subst ks'. exists []. rewrite app_nil_r. repeat split; [intros ? [] | discriminate].
Qed.

Lemma vi_loop_keys : forall us i (sigs : list (sigmap S)) ag txType hash fork ks allKeys ksf akf,
  vi_loop i us sigs ag txType hash fork ks allKeys = Ok (ksf, akf) ->
  akf = allKeys ++ all_keys us /\ Forall (fun u => lock_blocks u hash fork = false) us.
Proof.
  induction us as [|u us IH]; intros i sigs ag txType hash fork ks allKeys ksf akf H; cbn [vi_loop] in H.
  - injection H as <- <-. split; [symmetry; apply app_nil_r | constructor].
  - destruct (lock_blocks u hash fork) eqn:E; [discriminate|].
    apply bind_ok in H. destruct H as (ks1 & _ & H). apply IH in H. destruct H as [-> HF].
    split; [symmetry; apply app_assoc | constructor; assumption].
Qed.

(* signature maps: with distinct key pointers nothing is overwritten.  [P] is
   what makes the induction go: the pointers seen so far (a superset of those in
   [ks]), kept disjoint from the pointers of the inputs still to come; the
   caller starts it at []. *)
Lemma vi_loop_map : forall us i (sigs : list (sigmap S)) txType hash fork ks allKeys ksf akf P,
  Forall (fun m => NoDup (map fst m)) sigs ->
  incl (ptrs ks) P -> NoDup (P ++ map kptr (all_keys us)) ->
  vi_loop i us sigs None txType hash fork ks allKeys = Ok (ksf, akf) ->
  incl ks ksf /\
  forall n u, nth_error us n = Some u -> is_script_type (utype u) = true ->
              map_facts sigs ksf (i + n) u.
Proof.
  induction us as [|u us IH]; intros i sigs txType hash fork ks allKeys ksf akf P Hwf Hincl Hnd H; cbn [vi_loop] in H.
  - injection H as <- _. split; [apply incl_refl | intros [|n] u Hn; discriminate Hn].
  - destruct (lock_blocks u hash fork); [discriminate|]. apply bind_ok in H. destruct H as (ks1 & Hv & H).
    unfold all_keys in Hnd. cbn [map concat] in Hnd. rewrite map_app, app_assoc in Hnd.
    destruct (NoDup_app_inv _ _ _ Hnd) as (Hnd1 & _ & _). destruct (NoDup_app_inv _ _ _ Hnd1) as (_ & Hndu & Hdisj).
    apply validate_utxo_map in Hv; [| exact Hwf | exact Hndu |].
    2:{ intros k Hk Hp. exact (Hdisj _ (Hincl _ Hp) (in_map kptr _ _ Hk)). }
    destruct Hv as (ents1 & -> & Hi1 & Hf1).
    apply IH with (P := P ++ map kptr (ukeys u)) in H; [| exact Hwf | | exact Hnd].
    2:{ unfold ptrs. rewrite map_app. apply incl_app_app; assumption. }
    destruct H as [Hsub Hf]. split; [exact (proj1 (incl_app_inv _ _ Hsub))|].
    intros [|n] u0 Hn Hs; cbn [nth_error] in Hn; [|rewrite Nat.add_succ_r; exact (Hf n u0 Hn Hs)].
    injection Hn as <-. rewrite Nat.add_0_r. destruct (Hf1 Hs) as (m & Hm & Hsv & Hc).
    exists m. split; [exact Hm|]. split; [exact Hsv|].
    exact (collected_incl _ _ _ _ Hc (proj2 (incl_app_inv _ _ Hsub))).
Qed.

Lemma agg_window_spec : forall signers offset limit keys (ks : keysigs S) cnt ks' cnt' prev,
  increasing_from prev signers ->
  agg_window signers offset limit keys ks cnt = Ok (ks', cnt') ->
  cnt' = cnt + count_in_window signers offset limit /\
  (length ks <= length ks')%nat /\ (cnt < cnt' -> (1 <= length ks')%nat).
Proof.
  induction signers as [|m rest IH]; intros offset limit keys ks cnt ks' cnt' prev Hinc H; cbn [agg_window] in H.
  - injection H as <- <-. change (count_in_window [] offset limit) with 0. lia.
  - destruct Hinc as [_ Hinc]. rewrite count_cons. destruct (m >=? limit) eqn:E1.
    + injection H as <- <-. rewrite count_none_above; [lia|].
      eapply Forall_impl; [|apply increasing_lower; exact Hinc]. cbn. intros; lia.
    + destruct (m <? offset) eqn:E2; [apply (IH _ _ _ _ _ _ _ m Hinc) in H; lia|].
      destruct (nth_error keys (Z.to_nat (m - offset))) as [k|]; [|discriminate].
      apply (IH _ _ _ _ _ _ _ m Hinc) in H. pose proof (ks_set_length k None ks).
      assert (0 <= count_in_window rest offset limit) by (unfold count_in_window, len; lia). lia.
Qed.

(* what an accepted script input guarantees under an aggregate signature: it
   counted the signers of its own window, starting at [off].  The last conjunct
   is what shows, from a positive threshold, that the loop collected a key and
   so AggregateVerify really ran. *)
Definition agg_facts (signers : list Z) (ks : keysigs S) (off : Z) (u : utxo) : Prop :=
  validate_aggregated_signers signers = true /\
  script_validate (uscript u) (count_in_window signers off (off + len (ukeys u))) = true /\
  (0 < count_in_window signers off (off + len (ukeys u)) -> (1 <= length ks)%nat).

Lemma validate_utxo_agg : forall i u (sigs : list (sigmap S)) signers txType ks off ks',
  validate_utxo i u sigs (Some signers) txType ks off = Ok ks' ->
  (length ks <= length ks')%nat /\
  (is_script_type (utype u) = true -> agg_facts signers ks' off u).
Proof.
  intros i u sigs signers txType ks off ks' H. apply validate_utxo_ok in H.
  destruct (is_script_type (utype u)); [|subst ks'; split; [lia | discriminate]].
  destruct H as (Hs & cnt & Hw & Hsv). pose proof Hs as Hinc. apply andb_true_iff in Hinc.
  apply proj2, signers_ordered_increasing in Hinc. apply (agg_window_spec _ _ _ _ _ _ _ _ _ Hinc) in Hw.
  destruct Hw as (E & Hl & Hn). rewrite Z.add_0_l in E. subst cnt.
  split; [exact Hl|]. intros _. split; [exact Hs|]. split; [exact Hsv | exact Hn].
Qed.

Lemma offset_of_S : forall u us n, offset_of (u :: us) (Datatypes.S n) = len (ukeys u) + offset_of us n.
Proof. intros. unfold offset_of. cbn [firstn map concat]. apply len_app. Qed.

Lemma vi_loop_agg : forall us i (sigs : list (sigmap S)) signers txType hash fork ks allKeys ksf akf,
  vi_loop i us sigs (Some signers) txType hash fork ks allKeys = Ok (ksf, akf) ->
  (length ks <= length ksf)%nat /\
  forall n u, nth_error us n = Some u -> is_script_type (utype u) = true ->
    agg_facts signers ksf (len allKeys + offset_of us n) u.
Proof.
  induction us as [|u us IH]; intros i sigs signers txType hash fork ks allKeys ksf akf H; cbn [vi_loop] in H.
  - injection H as <- _. split; [lia | intros [|n] u Hn; discriminate Hn].
  - destruct (lock_blocks u hash fork); [discriminate|]. apply bind_ok in H. destruct H as (ks1 & Hv & H).
    apply validate_utxo_agg in Hv. destruct Hv as [Hl0 Hs0]. apply IH in H. destruct H as [Hl Hf].
    split; [lia|]. intros [|n] u0 Hn Hs; cbn [nth_error] in Hn.
    + injection Hn as <-. change (offset_of (u :: us) 0) with 0. rewrite Z.add_0_r.
      destruct (Hs0 Hs) as (Hva & Hsv & Hne). repeat split; [exact Hva | exact Hsv | lia].
    + rewrite offset_of_S, Z.add_assoc, <- len_app. exact (Hf n u0 Hn Hs).
Qed.

Lemma strip_in : forall (es : list (N * option S)) l k os,
  strip es = Some l -> In (k, os) es -> exists s, os = Some s /\ In (k, s) l.
Proof.
  induction es as [|[k0 [s0|]] es IH]; intros l k os H Hin; cbn [strip] in H; [destruct Hin| |discriminate].
  destruct (strip es) as [l'|]; [|discriminate]. injection H as <-.
  destruct Hin as [[= <- <-]|Hin]; [exists s0; split; [reflexivity | left; reflexivity]|].
  destruct (IH l' k os eq_refl Hin) as (s & Hs & Hi). exists s. split; [assumption | right; assumption].
Qed.

Lemma in_ks_entries : forall (ks : keysigs S) k sg, In (k, sg) ks -> In (kval k, sg) (ks_entries ks).
Proof. intros ks k sg H. exact (in_map (fun e => (kval (fst e), snd e)) ks (k, sg) H). Qed.

(* the decision reads the lock state only through [lock_blocks] *)
Definition unlocked (u : utxo) : utxo := mkUtxo (utype u) (ukeys u) (uscript u) 0.

Lemma vi_loop_lock_irrelevant : forall us i (sigs : list (sigmap S)) ag txType hash fork ks allKeys,
  Forall (fun u => lock_blocks u hash fork = false) us ->
  vi_loop i us sigs ag txType hash fork ks allKeys =
  vi_loop i (map unlocked us) sigs ag txType hash fork ks allKeys.
Proof.
  induction us as [|u us IH]; intros i sigs ag txType hash fork ks allKeys HF; [reflexivity|].
  inversion HF as [|? ? Hu HF']; subst. cbn [map vi_loop]. rewrite Hu.
  change (lock_blocks (unlocked u) hash fork) with false.
  change (validate_utxo i (unlocked u) sigs) with (validate_utxo i u sigs).
  destruct (validate_utxo i u sigs ag txType ks (len allKeys)) as [ks1| |]; cbn [bind]; try reflexivity.
  apply IH. exact HF'.
Qed.

End KeySigs.

Section VerifierProofs.
Variable S : Type.
Variable ver : N -> S -> bool.
Variable bat : list (N * S) -> bool.
Variable aggv : S -> list (Z * N) -> bool.

Lemma batch_verify_each : forall es,
  (forall E, bat E = true -> forall k s, In (k, s) E -> ver k s = true) ->
  batch_verify ver bat es = true ->
  forall k os, In (k, os) es -> exists s, os = Some s /\ ver k s = true.
Proof.
  intros es Hsound H k os Hin. unfold batch_verify in H.
  destruct (strip es) as [l|] eqn:E; [|discriminate].
  destruct (strip_in _ es l k os E Hin) as (s & Hs & Hi). exists s. split; [assumption|].
  destruct l as [|[k1 s1] [|e2 l']]; [destruct Hi | | eapply Hsound; eassumption].
  destruct Hi as [[= <- <-]|[]]. exact H.
Qed.

(* [ksf <> []]: validateInputs lets a NodeAccept or NodeRemove transaction that
   collected no key through without calling any verifier *)
Lemma validate_inputs_ok : forall us (sigs : list (sigmap S)) ag txType hash fork,
  validate_inputs ver bat aggv us sigs ag txType hash fork = Ok tt ->
  exists ksf, vi_loop 0 us sigs (option_map snd ag) txType hash fork [] [] = Ok (ksf, all_keys us) /\
    (ksf <> [] -> (length us <= length ksf)%nat /\
       match ag with
       | Some (sg, signers) => aggregate_verify aggv sg (map kval (all_keys us)) signers = true
       | None => batch_verify ver bat (ks_entries ksf) = true
       end).
Proof.
  intros us sigs ag txType hash fork H. unfold validate_inputs in H.
  apply bind_ok in H. destruct H as ([ksf akf] & Hl & H). pose proof Hl as E. apply vi_loop_keys, proj1 in E.
  cbn [app] in E. subst akf. exists ksf. split; [exact Hl|].
  intros Hne. destruct ksf as [|e ksf]; [congruence|]. cbn [length Nat.eqb andb] in H.
  destruct (Nat.ltb_spec (Datatypes.S (length ksf)) (length us)) as [|Hle]; [discriminate|]. split; [exact Hle|].
  destruct ag as [[sg signers]|]; res_step H; reflexivity.
Qed.

(* accepted with per-input signature maps, the key pointers being distinct:
   every map entry of every script input sits in what the verifier was called on,
   under the input's own key at that index *)
Theorem validate_inputs_map : forall us (sigs : list (sigmap S)) txType hash fork,
  NoDup (map kptr (all_keys us)) -> Forall (fun m => NoDup (map fst m)) sigs ->
  validate_inputs ver bat aggv us sigs None txType hash fork = Ok tt ->
  exists ksf,
    (forall i u, nth_error us i = Some u -> is_script_type (utype u) = true -> map_facts S sigs ksf i u) /\
    (ksf <> [] -> (length us <= length ksf)%nat /\ batch_verify ver bat (ks_entries ksf) = true).
Proof.
  intros us sigs txType hash fork Hnd Hwf H.
  apply validate_inputs_ok in H. destruct H as (ksf & Hl & Hv). exists ksf. split; [|exact Hv].
  apply vi_loop_map with (P := []) in Hl; [exact (proj2 Hl) | exact Hwf | intros ? [] | exact Hnd].
Qed.

(* accepted with an aggregate signature: every script input counted the signers
   of its own window of the concatenated key list, and if any input counted one
   the aggregate check passed *)
Theorem validate_inputs_agg : forall us (sigs : list (sigmap S)) sg signers txType hash fork,
  validate_inputs ver bat aggv us sigs (Some (sg, signers)) txType hash fork = Ok tt ->
  exists ksf,
    (forall i u, nth_error us i = Some u -> is_script_type (utype u) = true ->
       agg_facts S signers ksf (offset_of us i) u) /\
    (ksf <> [] -> aggregate_verify aggv sg (map kval (all_keys us)) signers = true).
Proof.
  intros us sigs sg signers txType hash fork H.
  apply validate_inputs_ok in H. destruct H as (ksf & Hl & Hv). exists ksf. apply vi_loop_agg in Hl.
  split; [exact (proj2 Hl) | intros Hne; exact (proj2 (Hv Hne))].
Qed.

End VerifierProofs.
