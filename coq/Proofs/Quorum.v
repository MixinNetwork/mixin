(* Lemmas about Model/Quorum.v: the counting argument for two signer lists, the
   key vector against the base of the threshold, the witness at round 0 of a
   pledging chain. *)
From Coq Require Import List ZArith NArith Bool Lia ZifyN ZifyNat ZifyBool Permutation.
Require Import Mixin.Base.Res Mixin.Gen.Consts Mixin.Model.Election Mixin.Model.Quorum Mixin.Proofs.Election Mixin.Proofs.Lists.
Import ListNotations.
Open Scope Z_scope.

Definition mem (x : N) (l : list N) : bool := existsb (N.eqb x) l.
Definition inter (s1 s2 : list N) : list N := filter (fun x => mem x s2) s1.

Lemma mem_in : forall x l, mem x l = true <-> In x l.
Proof. intros x l. exact (existsb_eqb_In N.eqb x l N.eqb_eq). Qed.

Lemma incl_of_forallb : forall s ks, forallb (fun x => mem x ks) s = true -> incl s ks.
Proof.
  intros s ks H x Hx. rewrite forallb_forall in H. apply mem_in. apply H. exact Hx.
Qed.

Lemma inter_lower_bound : forall ks s1 s2,
  NoDup s1 -> NoDup s2 -> incl s1 ks -> incl s2 ks ->
  (length s1 + length s2 <= length ks + length (inter s1 s2))%nat.
Proof.
  intros ks s1 s2 N1 N2 I1 I2.
  set (rest := filter (fun x => negb (mem x s2)) s1).
  assert (Hnd : NoDup (rest ++ s2)).
  { apply NoDup_app_disjoint; [apply NoDup_filter; exact N1|exact N2|].
    intros x Hx Hx2. apply filter_In in Hx. apply mem_in in Hx2. rewrite Hx2 in Hx. destruct Hx. discriminate. }
  assert (Hincl : incl (rest ++ s2) ks) by (apply incl_app; [exact (incl_tran (incl_filter _ _) I1)|exact I2]).
  pose proof (NoDup_incl_length Hnd Hincl) as Hlen. rewrite app_length in Hlen.
  pose proof (filter_split_length (fun x => mem x s2) s1). unfold inter. subst rest. lia.
Qed.

Lemma quorum_intersection : forall (ks s1 s2 : list N) t,
  2 * Z.of_nat (length ks) < 3 * t ->
  NoDup s1 -> NoDup s2 -> incl s1 ks -> incl s2 ks ->
  t <= Z.of_nat (length s1) -> t <= Z.of_nat (length s2) ->
  (length ks < 3 * length (inter s1 s2))%nat.
Proof.
  intros ks s1 s2 t Ht N1 N2 I1 I2 L1 L2.
  pose proof (inter_lower_bound ks s1 s2 N1 N2 I1 I2). lia.
Qed.

(* what the argument needs of Gen/Consts; the third and fourth are also the
   conditions under which the "should never be here" panics of ConsensusThreshold
   are unreachable *)
Lemma consts_sane :
  0 <= reference_window /\ reference_window <= Consts.QAcceptPeriodMinimum /\
  reference_window <= 3 * Consts.QMinute /\ Consts.QHour <= Consts.QAcceptPeriodMinimum /\
  0 <= Consts.QMinNodes <= 64 /\ 64 < invalid_threshold.
Proof. vm_compute. repeat split; discriminate. Qed.

Definition ts_in_range (all : list nrec) : Prop :=
  Forall (fun r => 0 <= r_ts r /\ r_ts r + Consts.QAcceptPeriodMinimum < two64) all.

Lemma ts_in_range_of_forallb : forall all,
  forallb (fun r => (0 <=? r_ts r) && (r_ts r + Consts.QAcceptPeriodMinimum <? two64)) all = true ->
  ts_in_range all.
Proof.
  intros all H. apply Forall_forall. intros r Hr.
  rewrite forallb_forall in H. specialize (H r Hr). lia.
Qed.

Lemma ready_counted : forall cfg cn ts,
  0 <= r_ts cn -> r_ts cn + Consts.QAcceptPeriodMinimum < two64 ->
  consensus_ready cfg cn ts = true -> counted cfg true cn ts = true.
Proof.
  intros cfg cn ts H0 H1 Hr. unfold consensus_ready, is_accepted in Hr. unfold counted.
  destruct (r_state cn); try discriminate Hr. cbn [andb] in Hr.
  destruct (is_genesis cfg cn); [reflexivity|]. cbn [orb] in *.
  pose proof consts_sane as [C0 [C1 _]].
  unfold u64 in *. rewrite Z.mod_small in * by lia. lia.
Qed.

Lemma ready_le_base : forall cfg all ts,
  ts_in_range all ->
  Z.of_nat (length (ready_nodes cfg all ts)) <= consensus_base cfg all ts true.
Proof.
  intros cfg all ts Hr. unfold ready_nodes, consensus_base, ready_on, base_on.
  apply inj_le. apply filter_length_impl.
  intros x Hx [Hn Hc]%andb_prop. rewrite Hn. cbn [andb].
  apply nodes_list_incl in Hx. destruct (proj1 (Forall_forall _ _) Hr x Hx) as [H0 H1].
  apply ready_counted; assumption.
Qed.

Lemma base_nonneg : forall cfg all ts final, 0 <= consensus_base cfg all ts final.
Proof. intros. unfold consensus_base, base_on. lia. Qed.

Lemma keys_length : forall cfg all pledging round ts,
  length (consensus_keys cfg all pledging round ts) =
  (length (ready_nodes cfg all ts) +
   match pledging with Some _ => if (round =? 0)%Z then 1 else 0 | None => 0 end)%nat.
Proof.
  intros. unfold consensus_keys, consensus_nodes, with_pledging.
  rewrite map_length, app_length. destruct pledging; [destruct (round =? 0)|]; reflexivity.
Qed.

Definition round0_pledging (pledging : option nrec) (round : Z) : Prop :=
  pledging <> None /\ round = 0.

Lemma keys_le_base : forall cfg all pledging round ts,
  ts_in_range all -> ~ round0_pledging pledging round ->
  Z.of_nat (length (consensus_keys cfg all pledging round ts)) <= consensus_base cfg all ts true.
Proof.
  intros cfg all pledging round ts Hr Hn. rewrite keys_length.
  pose proof (ready_le_base cfg all ts Hr) as Hb.
  destruct pledging as [ci|]; [|lia].
  destruct (round =? 0) eqn:E; [|lia].
  exfalso. apply Hn. split; [discriminate|lia].
Qed.

Lemma keys_le_base_plus_one : forall cfg all pledging round ts,
  ts_in_range all ->
  Z.of_nat (length (consensus_keys cfg all pledging round ts)) <= consensus_base cfg all ts true + 1.
Proof.
  intros cfg all pledging round ts Hr. rewrite keys_length.
  pose proof (ready_le_base cfg all ts Hr) as Hb.
  destruct pledging; [destruct (round =? 0)|]; lia.
Qed.

Lemma threshold_cases : forall cfg all ts final,
  (consensus_base cfg all ts final < Consts.QMinNodes /\
   consensus_threshold cfg all ts final = invalid_threshold) \/
  (Consts.QMinNodes <= consensus_base cfg all ts final /\
   consensus_threshold cfg all ts final = consensus_base cfg all ts final * 2 / 3 + 1).
Proof.
  intros. unfold consensus_threshold, threshold_of_base.
  destruct (consensus_base cfg all ts final <? Consts.QMinNodes) eqn:E; [left|right]; split; (lia || reflexivity).
Qed.

(* The arithmetic behind the intersection: twice a key count [k] stays below
   three times the threshold when [k] is within the base, or exceeds it by one
   and 2*base is a multiple of 3; below the minimum the threshold is the
   sentinel, above every count that small.
   (3 * (2b/3 + 1) > 2b >= 2k; for k = b + 1 one needs 3 * (2b/3) >= 2b, that
   is 2b mod 3 = 0.  The witness [round0_refuted] has base 7: 14 mod 3 = 2.) *)
Lemma threshold_supermajority : forall base k,
  k <= base \/ (k <= base + 1 /\ (2 * base) mod 3 = 0) -> 2 * k < 3 * threshold_of_base base.
Proof.
  intros base k H. pose proof consts_sane as (_ & _ & _ & _ & C4 & C5).
  unfold threshold_of_base. destruct (base <? Consts.QMinNodes) eqn:E; lia.
Qed.

Lemma keys_supermajority : forall cfg all pledging round ts,
  ts_in_range all -> ~ round0_pledging pledging round ->
  2 * Z.of_nat (length (consensus_keys cfg all pledging round ts)) < 3 * consensus_threshold cfg all ts true.
Proof.
  intros cfg all pledging round ts Hr Hn. apply threshold_supermajority. left.
  exact (keys_le_base cfg all pledging round ts Hr Hn).
Qed.

Lemma verify_params_in : forall cfg all pledging round ts p,
  In p (verify_params cfg all pledging round ts) ->
  exists t, p = (consensus_keys cfg all pledging round t, consensus_threshold cfg all t true).
Proof.
  intros cfg all pledging round ts p Hin. unfold verify_params in Hin. cbv zeta in Hin.
  destruct (use_predictive cfg ts); [|destruct (_ || _); [|destruct (_ <=? _)%nat]];
    repeat destruct Hin as [<-|Hin]; try contradiction; eexists; reflexivity.
Qed.

Lemma popcount_bound : forall n p, (Npos p < 2 ^ N.of_nat n)%N -> (pos_popcount p <= n)%nat.
Proof.
  induction n as [|n IH]; intros p H; [cbn in H; lia|].
  rewrite Nat2N.inj_succ, N.pow_succ_r' in H.
  destruct p as [q|q|]; cbn [pos_popcount]; [| |lia]; specialize (IH q); lia.
Qed.

Lemma mask_popcount_64 : forall mask, (mask < 2 ^ 64)%N -> (popcount mask <= 64)%nat.
Proof.
  intros mask H. destruct mask as [|p]; [cbn; lia|].
  cbn [popcount]. apply (popcount_bound 64). exact H.
Qed.

Lemma below_minimum : forall cfg all ts final,
  consensus_base cfg all ts final < Consts.QMinNodes ->
  consensus_threshold cfg all ts final = invalid_threshold /\
  (forall mask, (mask < 2 ^ 64)%N -> mask_meets mask (consensus_threshold cfg all ts final) = false) /\
  (final = true -> ts_in_range all -> forall pledging round s, NoDup s ->
     incl s (consensus_keys cfg all pledging round ts) ->
     Z.of_nat (length s) < consensus_threshold cfg all ts final).
Proof.
  intros cfg all ts final Hb.
  destruct (threshold_cases cfg all ts final) as [[_ Ht]|[Hb' _]]; [|lia].
  pose proof consts_sane as (_ & _ & _ & _ & C4 & C5). rewrite Ht.
  split; [reflexivity|]. split.
  - intros mask Hm. unfold mask_meets. pose proof (mask_popcount_64 mask Hm). lia.
  - intros -> Hr pledging round s Hnd Hi. pose proof (NoDup_incl_length Hnd Hi).
    pose proof (keys_le_base_plus_one cfg all pledging round ts Hr). lia.
Qed.

Lemma round0_supermajority : forall cfg all ci ts,
  ts_in_range all ->
  (2 * consensus_base cfg all ts true) mod 3 = 0 \/
  Z.of_nat (length (consensus_keys cfg all (Some ci) 0 ts)) <= consensus_base cfg all ts true ->
  2 * Z.of_nat (length (consensus_keys cfg all (Some ci) 0 ts)) < 3 * consensus_threshold cfg all ts true.
Proof.
  intros cfg all ci ts Hr Hc. apply threshold_supermajority.
  destruct Hc as [Hm|Hk]; [right; split; [exact (keys_le_base_plus_one cfg all (Some ci) 0 ts Hr)|exact Hm]|left; exact Hk].
Qed.

(* the witness of finding F4 (C10_round0_refuted): 7 genesis nodes and one pledging node *)
Definition f4_epoch : Z := 1551312000000000000.
Definition f4_pledger : nrec := mkrec 8 (f4_epoch + 100 * Consts.QOneDay) Pledging 8.
Definition f4_recs : list nrec :=
  map (fun i => mkrec i f4_epoch Accepted i) [1; 2; 3; 4; 5; 6; 7]%N ++ [f4_pledger].
Definition f4_cfg : netcfg := mkcfg f4_epoch false [1; 2; 3; 4; 5; 6; 7]%N.
Definition f4_ts : Z := f4_epoch + 100 * Consts.QOneDay + 13 * Consts.QHour.
Definition f4_s1 : list N := [1; 2; 3; 4; 5]%N.
Definition f4_s2 : list N := [4; 5; 6; 7; 8]%N.

Lemma round0_refuted :
  let all := load f4_recs in
  let ks := consensus_keys f4_cfg all (Some f4_pledger) 0 f4_ts in
  let t := consensus_threshold f4_cfg all f4_ts true in
  ts_in_range all /\ pledging_node all f4_ts = Some f4_pledger /\
  consensus_base f4_cfg all f4_ts true = 7 /\ length ks = 8%nat /\ t = 5 /\
  NoDup f4_s1 /\ NoDup f4_s2 /\ incl f4_s1 ks /\ incl f4_s2 ks /\
  t <= Z.of_nat (length f4_s1) /\ t <= Z.of_nat (length f4_s2) /\
  (3 * length (inter f4_s1 f4_s2) <= length ks)%nat.
Proof.
  cbv zeta.
  assert (Hks : consensus_keys f4_cfg (load f4_recs) (Some f4_pledger) 0 f4_ts = [1; 2; 3; 4; 5; 6; 7; 8]%N)
    by (vm_compute; reflexivity).
  assert (Ht : consensus_threshold f4_cfg (load f4_recs) f4_ts true = 5) by (vm_compute; reflexivity).
  rewrite Hks, Ht.
  split. { apply ts_in_range_of_forallb. vm_compute. reflexivity. }
  split; [vm_compute; reflexivity|].
  split; [vm_compute; reflexivity|].
  split; [reflexivity|]. split; [reflexivity|].
  split. { unfold f4_s1. repeat constructor; cbn; intuition discriminate. }
  split. { unfold f4_s2. repeat constructor; cbn; intuition discriminate. }
  split. { apply incl_of_forallb. vm_compute. reflexivity. }
  split. { apply incl_of_forallb. vm_compute. reflexivity. }
  split; [cbn; lia|]. split; [cbn; lia|].
  vm_compute. lia.
Qed.
