(* The slot-lock state machine of Model/Locks.v.  A lock call is a sequence of single-record writes,
   each possibly after pruning the previous holder: [outcome] is closed under that, [effect] is the
   part of it that every op satisfies.  The end is about [render], the text UniqueKey hashes. *)
From Coq Require Import List ZArith NArith Bool Lia Decimal DecimalN.
Require Import Mixin.Base.Res Mixin.Model.GhostKeys Mixin.Model.Locks
               Mixin.Proofs.Res Mixin.Proofs.Lists Mixin.Proofs.GhostKeys.
Import ListNotations.
Open Scope N_scope.

Lemma slot_eqb_eq : forall a b, slot_eqb a b = true <-> a = b.
Proof.
  intros [a1 a2] [b1 b2]. unfold slot_eqb. cbn. rewrite andb_true_iff, !N.eqb_eq.
  split; [intros [-> ->]; reflexivity|intros [= -> ->]; auto].
Qed.

Lemma bytes_eqb_eq : forall a b, bytes_eqb a b = true <-> a = b.
Proof.
  induction a as [|x a IH]; destruct b as [|y b]; cbn;
    [tauto|split; discriminate|split; discriminate|].
  rewrite andb_true_iff, N.eqb_eq, IH.
  split; [intros [-> ->]; reflexivity|intros [= -> ->]; auto].
Qed.

(* [wf_final]: an output slot exists only once its transaction is finalized
   (writeUTXO runs inside finalizeTransaction).  [finalize_effect] needs it:
   creating the slots of t unlocked then overwrites nobody's lock. *)
Record wf (s : state) : Prop := {
  wf_utxo : NoDup (map fst (s_utxo s));
  wf_dep : NoDup (map fst (s_dep s));
  wf_mint : NoDup (map fst (s_mint s));
  wf_body : NoDup (map fst (s_body s));
  wf_ghost : NoDup (map fst (s_ghost s));
  wf_final : forall sl, utxo_lock s sl <> None -> is_final s (fst sl) = true }.

Lemma wf_init : wf init.
Proof. split; try constructor. intros sl H. contradiction. Qed.

Lemma utxo_lock_set : forall s sl tx sl0,
  utxo_lock (with_utxo s (aset slot_eqb sl tx (s_utxo s))) sl0 =
  if slot_eqb sl0 sl then Some tx else utxo_lock s sl0.
Proof. intros. exact (afind_aset slot_eqb slot_eqb_eq sl tx sl0 (s_utxo s)). Qed.

Lemma wf_set_utxo : forall s sl tx,
  wf s -> is_final s (fst sl) = true -> wf (with_utxo s (aset slot_eqb sl tx (s_utxo s))).
Proof.
  intros s sl tx [Hu Hd Hm Hb Hg Hf] Hfin. split; auto.
  - apply nodup_aset; [exact slot_eqb_eq|exact Hu].
  - intros sl0 H. rewrite utxo_lock_set in H.
    destruct (eqb_reflect _ slot_eqb_eq sl0 sl) as [<-|]; [exact Hfin|exact (Hf _ H)].
Qed.

Lemma wf_set_dep : forall s k tx, wf s -> wf (with_dep s (aset bytes_eqb k tx (s_dep s))).
Proof.
  intros s k tx [Hu Hd Hm Hb Hg Hf]. split; auto.
  apply nodup_aset; [exact bytes_eqb_eq|exact Hd].
Qed.

Lemma wf_set_mint : forall s k v, wf s -> wf (with_mint s (aset N.eqb k v (s_mint s))).
Proof.
  intros s k v [Hu Hd Hm Hb Hg Hf]. split; auto.
  apply nodup_aset; [exact N.eqb_eq|exact Hm].
Qed.

Lemma wf_set_body : forall s k v, wf s -> wf (with_body s (aset N.eqb k v (s_body s))).
Proof.
  intros s k v [Hu Hd Hm Hb Hg Hf]. split; auto.
  apply nodup_aset; [exact N.eqb_eq|exact Hb].
Qed.

Lemma wf_with_ghost : forall s g, wf s -> NoDup (map fst g) -> wf (with_ghost s g).
Proof. intros s g [Hu Hd Hm Hb Hg Hf] Hn. split; auto. Qed.

Definition body_removed (s : state) (l : N) : state := with_body s (adel N.eqb l (s_body s)).

Lemma prune_ok : forall s t s', prune s t = Ok s' ->
  is_final s t = false /\ s' = body_removed s t.
Proof.
  unfold prune. intros s t s' H. destruct (is_final s t); [discriminate|].
  injection H as <-. split; reflexivity.
Qed.

Lemma prune_not_panic : forall s t, prune s t <> Panic.
Proof. unfold prune. intros s t. destruct (is_final s t); discriminate. Qed.

Lemma wf_body_removed : forall s l, wf s -> wf (body_removed s l).
Proof.
  intros s l [Hu Hd Hm Hb Hg Hf]. split; auto. apply nodup_adel. exact Hb.
Qed.

Lemma has_body_removed : forall s l t,
  has_body (body_removed s l) t = if t =? l then false else has_body s t.
Proof.
  intros s l t. unfold has_body, body_of, body_removed. cbn [s_body with_body].
  rewrite (afind_adel N.eqb N.eqb_eq). destruct (t =? l); reflexivity.
Qed.

(* h keeps in s' every slot it holds in s *)
Definition holds (s : state) (h : N) (s' : state) : Prop :=
  (forall sl, utxo_lock s sl = Some h -> utxo_lock s' sl = Some h) /\
  (forall d, dep_lock s d = Some h -> dep_lock s' d = Some h) /\
  (forall b a, mint_lock s b = Some (h, a) -> mint_lock s' b = Some (h, a)).

Lemma holds_refl : forall s h, holds s h s.
Proof. intros. repeat split; auto. Qed.

Lemma holds_trans : forall s1 s2 s3 h, holds s1 h s2 -> holds s2 h s3 -> holds s1 h s3.
Proof. intros s1 s2 s3 h (U1 & D1 & M1) (U2 & D2 & M2). repeat split; auto. Qed.

(* A successful lock call writes lock records and removes bodies, nothing else.
   Every transaction h <> 0 either keeps all its slots, or the call is a fork
   call, h is not finalized and its body is gone.  No call creates a body: that
   is what lets "the body of h is gone" survive composition in [outcome_trans]. *)
Definition outcome (fork : bool) (s s' : state) : Prop :=
  (wf s -> wf s') /\ s_ghost s' = s_ghost s /\ s_final s' = s_final s /\
  (forall t, has_body s t = false -> has_body s' t = false) /\
  forall h, h <> 0 ->
    holds s h s' \/ (fork = true /\ is_final s h = false /\ has_body s' h = false).

Lemma outcome_refl : forall f s, outcome f s s.
Proof. intros f s. repeat (split; [auto|]). intros h _. left. apply holds_refl. Qed.

Lemma outcome_trans : forall f s1 s2 s3, outcome f s1 s2 -> outcome f s2 s3 -> outcome f s1 s3.
Proof.
  intros f s1 s2 s3 (W1 & G1 & F1 & B1 & K1) (W2 & G2 & F2 & B2 & K2).
  split; [auto|]. split; [congruence|]. split; [congruence|]. split; [auto|].
  intros h Hh. destruct (K1 h Hh) as [H1|(Hf & Hn & Hb)]; [|right; auto].
  destruct (K2 h Hh) as [H2|(Hf & Hn & Hb)]; [left; eapply holds_trans; eassumption|right].
  unfold is_final in *. rewrite <- F1. auto.
Qed.

(* the fork branch shared by the three lockers: the holder l is pruned, then
   [set] writes the new record *)
Lemma outcome_take : forall (f : bool) s l (set : state -> state) s',
  (if f then do s0 <- prune s l; Ok (set s0) else Err) = Ok s' ->
  (f = true /\ is_final (body_removed s l) l = false /\ has_body (body_removed s l) l = false ->
   outcome f (body_removed s l) (set (body_removed s l))) ->
  outcome f s s'.
Proof.
  intros f s l set s' H Hset. destruct f; [|discriminate].
  apply bind_ok in H as (s0 & Hp & [= <-]). apply prune_ok in Hp as [Hfin ->].
  assert (Hb : has_body (body_removed s l) l = false)
    by (rewrite has_body_removed, N.eqb_refl; reflexivity).
  eapply outcome_trans; [|apply Hset; auto].
  split; [apply wf_body_removed|]. repeat (split; [reflexivity|]). split.
  - intros t Ht. rewrite has_body_removed, Ht. destruct (t =? l); reflexivity.
  - intros h _. destruct (N.eq_dec h l) as [->|]; [right; auto|left; exact (holds_refl s h)].
Qed.

Lemma outcome_set_utxo : forall f s sl tx l,
  utxo_lock s sl = Some l ->
  (l = 0 \/ l = tx) \/ (f = true /\ is_final s l = false /\ has_body s l = false) ->
  outcome f s (with_utxo s (aset slot_eqb sl tx (s_utxo s))).
Proof.
  intros f s sl tx l El Hl. split.
  { intro Hw. apply wf_set_utxo; [exact Hw|]. apply (wf_final _ Hw). rewrite El. discriminate. }
  repeat (split; [auto|]). intros h Hh.
  assert (Hk : (utxo_lock s sl = Some h -> tx = h) ->
               holds s h (with_utxo s (aset slot_eqb sl tx (s_utxo s)))).
  { intro Hk. split; [|split; auto]. intros sl0 H0. exact (aset_keeps _ slot_eqb_eq _ _ _ _ _ H0 Hk). }
  destruct (N.eq_dec l h) as [->|Hne]; [|left; apply Hk; congruence].
  destruct Hl as [[->| ->]|Hl]; [contradiction|left; auto|right; exact Hl].
Qed.

Lemma outcome_set_dep : forall f s d tx o,
  dep_lock s d = o ->
  (forall l, o = Some l -> f = true /\ is_final s l = false /\ has_body s l = false) ->
  outcome f s (with_dep s (aset bytes_eqb (dep_key d) tx (s_dep s))).
Proof.
  intros f s d tx o Eo Hl. split; [apply wf_set_dep|]. repeat (split; [auto|]). intros h _.
  assert (Hk : (dep_lock s d = Some h -> tx = h) ->
               holds s h (with_dep s (aset bytes_eqb (dep_key d) tx (s_dep s)))).
  { intro Hk. split; [auto|split; [|auto]]. intros d0 H0. exact (aset_keeps _ bytes_eqb_eq _ _ _ _ _ H0 Hk). }
  destruct o as [l|]; [|left; apply Hk; congruence].
  destruct (N.eq_dec l h) as [->|Hne]; [right; exact (Hl h eq_refl)|left; apply Hk; congruence].
Qed.

Lemma outcome_set_mint : forall f s b v o,
  mint_lock s b = o ->
  (forall l a, o = Some (l, a) -> f = true /\ is_final s l = false /\ has_body s l = false) ->
  outcome f s (with_mint s (aset N.eqb b v (s_mint s))).
Proof.
  intros f s b v o Eo Hl. split; [apply wf_set_mint|]. repeat (split; [auto|]). intros h _.
  assert (Hk : (forall a, mint_lock s b = Some (h, a) -> v = (h, a)) ->
               holds s h (with_mint s (aset N.eqb b v (s_mint s)))).
  { intro Hk. split; [auto|split; [auto|]]. intros b0 a H0. exact (aset_keeps _ N.eqb_eq _ _ _ _ _ H0 (Hk a)). }
  destruct o as [[l a0]|]; [|left; apply Hk; congruence].
  destruct (N.eq_dec l h) as [->|Hne]; [right; exact (Hl h a0 eq_refl)|left; apply Hk; congruence].
Qed.

Lemma outcome_lock_utxo : forall s sl tx f s', lock_utxo s sl tx f = Ok s' -> outcome f s s'.
Proof.
  unfold lock_utxo. intros s sl tx f s' H.
  destruct (max_utxo_index <? snd sl); [discriminate|].
  destruct (utxo_lock s sl) as [l|] eqn:El; [|discriminate].
  destruct (negb (l =? 0) && negb (l =? tx)) eqn:Ec.
  - apply (outcome_take _ _ _ _ _ H). intro Hl. apply (outcome_set_utxo _ (body_removed s l) _ _ l El). auto.
  - injection H as <-. apply (outcome_set_utxo _ _ _ _ l El). left.
    destruct (N.eqb_spec l 0), (N.eqb_spec l tx); auto. discriminate Ec.
Qed.

Lemma outcome_lock_utxos : forall ins s tx f s', lock_utxos s ins tx f = Ok s' -> outcome f s s'.
Proof.
  induction ins as [|a ins IH]; cbn; intros s tx f s' H.
  - injection H as <-. apply outcome_refl.
  - apply bind_ok in H as (s1 & E & H).
    eapply outcome_trans; [eapply outcome_lock_utxo; exact E|eapply IH; exact H].
Qed.

Lemma outcome_lock_deposit : forall s d tx f s', lock_deposit s d tx f = Ok s' -> outcome f s s'.
Proof.
  unfold lock_deposit. intros s d tx f s' H. destruct (dep_lock s d) as [l|] eqn:El.
  - destruct (l =? tx); [injection H as <-; apply outcome_refl|].
    apply (outcome_take _ _ _ _ _ H). intro Hl.
    apply (outcome_set_dep _ (body_removed s l) _ _ _ El). intros ? [= <-]. exact Hl.
  - injection H as <-. apply (outcome_set_dep _ _ _ _ _ El). discriminate.
Qed.

Lemma outcome_lock_mint : forall s b a tx f s', lock_mint s b a tx f = Ok s' -> outcome f s s'.
Proof.
  unfold lock_mint. intros s b a tx f s' H. destruct (mint_lock s b) as [[l a0]|] eqn:El.
  - destruct ((l =? tx) && (a0 =? a)%Z); [injection H as <-; apply outcome_refl|].
    apply (outcome_take _ _ _ _ _ H). intro Hl.
    apply (outcome_set_mint _ (body_removed s l) _ _ _ El). intros ? ? [= <- <-]. exact Hl.
  - injection H as <-. apply (outcome_set_mint _ _ _ _ _ El). discriminate.
Qed.

Lemma outcome_lock_inputs : forall s t f s', lock_inputs s t f = Ok s' -> outcome f s s'.
Proof.
  unfold lock_inputs. intros s t f s'.
  destruct (t_ins t); eauto using outcome_lock_utxos, outcome_lock_deposit, outcome_lock_mint.
Qed.

Lemma lock_utxos_conflict : forall ins s tx sl l,
  In sl ins -> utxo_lock s sl = Some l -> l <> 0 -> l <> tx ->
  forall s', lock_utxos s ins tx false <> Ok s'.
Proof.
  induction ins as [|a ins IH]; cbn; intros s tx sl l Hin El H0 Hne s' H; [contradiction|].
  apply bind_ok in H as (s1 & E & H). destruct Hin as [->|Hin].
  - revert E. unfold lock_utxo. rewrite El.
    rewrite (proj2 (N.eqb_neq l 0) H0), (proj2 (N.eqb_neq l tx) Hne).
    destruct (max_utxo_index <? snd sl); discriminate.
  - apply (IH s1 tx sl l Hin) with (s' := s'); auto.
    destruct (outcome_lock_utxo _ _ _ _ _ E) as (_ & _ & _ & _ & K).
    destruct (K l H0) as [Kl|[[=] _]]. apply Kl. exact El.
Qed.

Lemma lock_deposit_conflict : forall s d tx l,
  dep_lock s d = Some l -> l <> tx -> lock_deposit s d tx false = Err.
Proof.
  unfold lock_deposit. intros s d tx l El Hne. rewrite El.
  destruct (N.eqb_spec l tx); [contradiction|reflexivity].
Qed.

Lemma lock_mint_conflict : forall s b a tx l a0,
  mint_lock s b = Some (l, a0) -> (l <> tx \/ a0 <> a) -> lock_mint s b a tx false = Err.
Proof.
  unfold lock_mint. intros s b a tx l a0 El Hne. rewrite El.
  destruct (N.eqb_spec l tx), (Z.eqb_spec a0 a); try reflexivity. tauto.
Qed.

Lemma lock_utxos_relock : forall ins s tx f,
  (forall sl, In sl ins -> utxo_lock s sl = Some tx /\ snd sl <= max_utxo_index) ->
  lock_utxos s ins tx f = Ok s.
Proof.
  induction ins as [|a ins IH]; cbn; intros s tx f H; [reflexivity|].
  destruct (H a (or_introl eq_refl)) as [El Hi].
  assert (E : lock_utxo s a tx f = Ok s).
  { unfold lock_utxo. rewrite (proj2 (N.ltb_ge _ _) Hi), El, N.eqb_refl, andb_false_r.
    rewrite (aset_id slot_eqb a tx _ El). destruct s; reflexivity. }
  rewrite E. cbn. apply IH. intros sl Hin. apply H. right. exact Hin.
Qed.

Lemma lock_deposit_relock : forall s d tx f, dep_lock s d = Some tx -> lock_deposit s d tx f = Ok s.
Proof. unfold lock_deposit. intros s d tx f El. rewrite El, N.eqb_refl. reflexivity. Qed.

Lemma lock_mint_relock : forall s b a tx f, mint_lock s b = Some (tx, a) -> lock_mint s b a tx f = Ok s.
Proof. unfold lock_mint. intros s b a tx f El. rewrite El, N.eqb_refl, Z.eqb_refl. reflexivity. Qed.

Lemma write_tx_ok : forall s t s', write_tx s t = Ok s' ->
  s' = s \/ s' = with_body s (aset N.eqb (t_hash t) t (s_body s)).
Proof.
  unfold write_tx. intros s t s' H. apply bind_ok in H as (_ & _ & H).
  destruct (has_body s (t_hash t)); [injection H; auto|].
  destruct (t_ins t) as [[|sl l]| | |]; try discriminate; injection H; auto.
Qed.

Lemma write_utxos_ok : forall outs s t i s', write_utxos s t i outs = Ok s' ->
  s_final s' = s_final s /\ s_dep s' = s_dep s /\ s_mint s' = s_mint s /\ s_body s' = s_body s /\
  (forall P, bind_stable P -> P (s_ghost s) -> P (s_ghost s')) /\
  (NoDup (map fst (s_utxo s)) -> NoDup (map fst (s_utxo s'))) /\
  (forall sl, utxo_lock s' sl = utxo_lock s sl \/ (fst sl = t /\ utxo_lock s' sl = Some 0)).
Proof.
  induction outs as [|ks outs IH]; cbn [write_utxos]; intros s t i s' H.
  - injection H as <-. repeat split; auto.
  - apply bind_ok in H as (g & Eg & H). destruct (max_utxo_index <? i); [discriminate|].
    apply IH in H as (F & D & M & B & G & U & L).
    repeat split; [exact F|exact D|exact M|exact B|..].
    + intros P HP Hg. apply (G P HP). exact (relock_keys_stable P HP _ _ _ _ Eg Hg).
    + intro Hn. apply U. apply nodup_aset; [exact slot_eqb_eq|exact Hn].
    + intro sl. destruct (L sl) as [E|E]; [|right; exact E]. rewrite E, utxo_lock_set.
      destruct (eqb_reflect _ slot_eqb_eq sl (t, i)) as [->|]; [right; split; reflexivity|left; reflexivity].
Qed.

Lemma write_utxos_foreign : forall outs s t i k x ks,
  In ks outs -> In k ks -> bound (s_ghost s) k x -> x <> t -> is_exception t = false ->
  forall s', write_utxos s t i outs <> Ok s'.
Proof.
  induction outs as [|ks0 outs IH]; cbn; intros s t i k x ks Hin Hk Hb Hne Hex s' H; [contradiction|].
  apply bind_ok in H as (g & E & H). destruct (max_utxo_index <? i); [discriminate|].
  destruct Hin as [->|Hin].
  - rewrite (relock_keys_foreign ks (s_ghost s) t k x Hk Hb Hne Hex) in E. discriminate.
  - refine (IH _ _ _ k x ks Hin Hk _ Hne Hex s' H).
    exact (relock_keys_stable _ (bound_bind_stable k x) _ _ _ _ E Hb).
Qed.

Lemma finalize_ok : forall s t s', finalize s t = Ok s' ->
  s' = s \/ exists b, body_of s t = Some b /\ is_final s t = false /\
                      write_utxos (with_final s (t :: s_final s)) t 0 (t_outs b) = Ok s'.
Proof.
  unfold finalize, finalize_one. intros s t s' H.
  destruct (debug_asserts && negb (has_body s t)); [discriminate|].
  destruct (body_of s t) as [b|]; [|discriminate].
  destruct (is_final s t); [injection H; auto|eauto].
Qed.

Definition op_fork (o : op) : bool :=
  match o with
  | LockUTXOs _ _ f | LockDeposit _ _ f | LockMint _ _ _ f | LockInputs _ f => f
  | _ => false
  end.

(* [outcome] weakened to what WriteTransaction, LockGhostKeys and finalization
   satisfy too: bodies and finalization records may be added, and the key
   bindings change only as [bind_stable] allows.  The rest is stated under
   [wf s] because finalization keeps the holders only from a well-formed state. *)
Definition effect (fork : bool) (s s' : state) : Prop :=
  (forall P, bind_stable P -> P (s_ghost s) -> P (s_ghost s')) /\
  (wf s -> wf s' /\ (forall x, is_final s x = true -> is_final s' x = true) /\
     forall h, h <> 0 ->
       holds s h s' \/ (fork = true /\ is_final s h = false /\ has_body s' h = false)).

Lemma outcome_effect : forall f s s', outcome f s s' -> effect f s s'.
Proof.
  intros f s s' (W & G & F & _ & K). unfold effect, is_final. rewrite G, F. auto.
Qed.

Lemma finalize_effect : forall s t s', finalize s t = Ok s' -> effect false s s'.
Proof.
  intros s t s' H.
  apply finalize_ok in H as [->|(b & _ & Ef & H)]; [apply outcome_effect, outcome_refl|].
  apply write_utxos_ok in H as (F & D & M & B & G & U & L).
  split; [exact G|]. intros [Hu Hd Hm Hb Hg Hf].
  assert (Hfin : forall x, is_final s x = true -> is_final s' x = true).
  { intros x Hx. unfold is_final in *. rewrite F. cbn. rewrite Hx. apply orb_true_r. }
  split; [|split; [exact Hfin|]].
  - split; rewrite ?D, ?M, ?B; auto.
    + (* wf_ghost *) exact (G _ nodup_bind_stable Hg).
    + (* wf_final *) intros sl Hs. destruct (L sl) as [E|[<- _]]; [rewrite E in Hs; exact (Hfin _ (Hf sl Hs))|].
      unfold is_final. rewrite F. cbn. rewrite N.eqb_refl. reflexivity.
  - intros h Hh. left. unfold holds, dep_lock, mint_lock. rewrite D, M. split; [|auto].
    (* a slot of t held before t is finalized would contradict wf *)
    intros sl Hs. destruct (L sl) as [E|[<- _]]; [rewrite E; exact Hs|].
    rewrite (Hf sl) in Ef; [discriminate|congruence].
Qed.

Theorem exec_ok : forall s o s', exec s o = Ok s' -> effect (op_fork o) s s'.
Proof.
  intros s o s' H.
  destruct o; cbn [exec op_fork] in *.
  - apply outcome_effect, (outcome_lock_utxos _ _ _ _ _ H).
  - apply outcome_effect, (outcome_lock_deposit _ _ _ _ _ H).
  - apply outcome_effect, (outcome_lock_mint _ _ _ _ _ _ H).
  - apply outcome_effect, (outcome_lock_inputs _ _ _ _ H).
  - apply bind_ok in H as (g & Eg & [= <-]). split.
    + intros P HP. exact (lock_ghost_keys_from_stable P HP _ _ _ _ _ _ Eg).
    + intro Hw. split; [|split; [auto|intros h _; left; exact (holds_refl s h)]].
      apply wf_with_ghost; [exact Hw|].
      exact (lock_ghost_keys_from_stable _ nodup_bind_stable _ _ _ _ _ _ Eg (wf_ghost _ Hw)).
  - apply write_tx_ok in H as [->| ->]; [apply outcome_effect, outcome_refl|].
    split; [auto|]. intro Hw. split; [apply wf_set_body; exact Hw|].
    split; [auto|intros h _; left; exact (holds_refl s h)].
  - exact (finalize_effect _ _ _ H).
Qed.

Lemma step_effect : forall s o, effect (op_fork o) s (fst (step s o)).
Proof.
  intros s o. unfold step. destruct (exec s o) eqn:E; [exact (exec_ok _ _ _ E)|..];
    apply outcome_effect, outcome_refl.
Qed.

Lemma step_ok : forall s o s', exec s o = Ok s' -> step s o = (s', Ok tt).
Proof. intros s o s' E. unfold step. rewrite E. reflexivity. Qed.

Lemma step_ok_inv : forall s o s', step s o = (s', Ok tt) -> exec s o = Ok s'.
Proof. intros s o s'. unfold step. destruct (exec s o); intros [= <-]; reflexivity. Qed.

Lemma step_err : forall s o, exec s o = Err -> step s o = (s, Err).
Proof. intros s o E. unfold step. rewrite E. reflexivity. Qed.

Lemma step_not_ok : forall s o, (forall s', exec s o <> Ok s') ->
  fst (step s o) = s /\ snd (step s o) <> Ok tt.
Proof.
  intros s o H. unfold step.
  destruct (exec s o) as [s'| |]; [elim (H s' eq_refl)|split; [reflexivity|discriminate]..].
Qed.

Lemma run_app : forall os1 os2 s, run s (os1 ++ os2) = run (run s os1) os2.
Proof. intros. apply fold_left_app. Qed.

Lemma wf_step : forall s o, wf s -> wf (fst (step s o)).
Proof.
  intros s o Hw. apply (step_effect s o), Hw.
Qed.

Lemma wf_run : forall os s, wf s -> wf (run s os).
Proof. intros os s. apply fold_left_inv. intros s' o _. apply wf_step. Qed.

Lemma step_ghost_stable : forall P, bind_stable P ->
  forall s o, P (s_ghost s) -> P (s_ghost (fst (step s o))).
Proof.
  intros P HP s o. exact (proj1 (step_effect s o) P HP).
Qed.

Lemma run_ghost_stable : forall P, bind_stable P ->
  forall os s, P (s_ghost s) -> P (s_ghost (run s os)).
Proof.
  intros P HP os s. apply (fold_left_inv (fun s => P (s_ghost s))).
  intros s' o _. apply step_ghost_stable, HP.
Qed.

Lemma run_final_keeps : forall os s h, wf s -> h <> 0 -> is_final s h = true ->
  is_final (run s os) h = true /\ holds s h (run s os).
Proof.
  intros os s h Hw Hh Hf.
  apply (fold_left_inv (fun s' => wf s' /\ is_final s' h = true /\ holds s h s'));
    [|split; [exact Hw|split; [exact Hf|apply holds_refl]]].
  intros s1 o _ (W1 & F1 & K1). destruct (proj2 (step_effect s1 o) W1) as (W2 & F & K).
  split; [exact W2|]. split; [apply F, F1|]. destruct (K h Hh) as [K2|(_ & Hn & _)]; [|congruence].
  eapply holds_trans; eassumption.
Qed.

Lemma distinct_keys_pass : forall outs, NoDup (concat outs) -> vo_keys outs = Ok (concat outs).
Proof. intros outs H. exact (vo_keys_from_nodup _ [] H). Qed.

Lemma hex_fixed_length : forall k c, length (hex_fixed k c) = k.
Proof.
  induction k as [|k IH]; cbn; intro c; [reflexivity|].
  rewrite app_length, IH. cbn. lia.
Qed.

Lemma hexdig_inj : forall a b, a < 16 -> b < 16 -> hexdig a = hexdig b -> a = b.
Proof.
  unfold hexdig. intros a b Ha Hb.
  destruct (N.ltb_spec a 10), (N.ltb_spec b 10); lia.
Qed.

Lemma hex_fixed_inj : forall k c1 c2,
  c1 < 16 ^ N.of_nat k -> c2 < 16 ^ N.of_nat k -> hex_fixed k c1 = hex_fixed k c2 -> c1 = c2.
Proof.
  induction k as [|k IH]; intros c1 c2 H1 H2 H.
  - apply N.lt_1_r in H1, H2. congruence.
  - cbn [hex_fixed] in H. apply app_inj_tail in H as [Hp Hd].
    rewrite Nat2N.inj_succ, N.pow_succ_r' in H1, H2.
    apply IH in Hp; [|apply N.div_lt_upper_bound; [discriminate|assumption]..].
    apply hexdig_inj in Hd; [|apply N.mod_lt; discriminate..].
    rewrite (N.div_mod c1 16), (N.div_mod c2 16), Hp, Hd by discriminate. reflexivity.
Qed.

Definition uint_digit_of_char (c : N) : uint -> uint :=
  match c with
  | 48 => D0 | 49 => D1 | 50 => D2 | 51 => D3 | 52 => D4
  | 53 => D5 | 54 => D6 | 55 => D7 | 56 => D8 | _ => D9
  end.

Lemma uint_chars_inj : forall u v, uint_chars u = uint_chars v -> u = v.
Proof.
  assert (Hback : forall u, fold_right uint_digit_of_char Nil (uint_chars u) = u)
    by (induction u; cbn; congruence).
  intros u v H. rewrite <- (Hback u), <- (Hback v), H. reflexivity.
Qed.

Lemma uint_chars_no_colon : forall u, ~ In colon (uint_chars u).
Proof.
  induction u; cbn; intro H; try contradiction;
    destruct H as [H|H]; try (unfold colon in H; discriminate); contradiction.
Qed.

Lemma dec_chars_inj : forall a b, dec_chars a = dec_chars b -> a = b.
Proof.
  unfold dec_chars. intros a b H. apply uint_chars_inj in H.
  rewrite <- (DecimalN.Unsigned.of_to a), <- (DecimalN.Unsigned.of_to b), H. reflexivity.
Qed.

(* [render] is cut at its LAST colon: the transaction id may contain colons,
   the decimal index cannot ([uint_chars_no_colon]) *)
Lemma split_last_sep : forall (x1 x2 y1 y2 : list N) c,
  ~ In c y1 -> ~ In c y2 -> x1 ++ c :: y1 = x2 ++ c :: y2 -> x1 = x2 /\ y1 = y2.
Proof.
  induction x1 as [|a x1 IH]; destruct x2 as [|b x2]; cbn; intros y1 y2 c H1 H2 H.
  - injection H as ->. auto.
  - injection H as <- ->. elim H1. apply in_elt.
  - injection H as -> <-. elim H2. apply in_elt.
  - injection H as -> H. destruct (IH _ _ _ _ H1 H2 H) as [-> ->]. auto.
Qed.
