(* Lemmas about Model/HexText.v: hexadecimal and JSON text forms of keys,
   hashes, signatures and collective signatures round-trip. *)
From Coq Require Import List ZArith NArith Bool Lia ZifyBool.
Require Import Mixin.Base.Res Mixin.Gen.Consts Mixin.Model.HexText Mixin.Proofs.Lists.
Import ListNotations.
Open Scope N_scope.

Definition bytes (l : list N) : Prop := Forall (fun b => b < 256) l.
Definition hex_text (s : list N) : Prop := Forall (fun c => hex_val c <> None) s.
(* [hex_val] also reads A-F while [hex_char] prints a-f: a text that parses is
   printed back as [map lower] of itself *)
Definition lower (c : N) : N := if (65 <=? c) && (c <=? 70) then c + 32 else c.

Lemma hex_val_char : forall d, d < 16 -> hex_val (hex_char d) = Some d.
Proof.
  intros d Hd. unfold hex_val, hex_char. destruct (N.ltb_spec d 10).
  - replace ((48 <=? 48 + d) && (48 + d <=? 57)) with true by lia. f_equal. lia.
  - replace ((48 <=? 87 + d) && (87 + d <=? 57)) with false by lia.
    replace ((97 <=? 87 + d) && (87 + d <=? 102)) with true by lia. f_equal. lia.
Qed.

Lemma hex_val_sound : forall c h, hex_val c = Some h -> h < 16 /\ hex_char h = lower c.
Proof.
  intros c h H. unfold hex_val in H. unfold lower, hex_char.
  destruct ((48 <=? c) && (c <=? 57)) eqn:E1.
  - injection H as <-. replace ((65 <=? c) && (c <=? 70)) with false by lia.
    replace (c - 48 <? 10) with true by lia. lia.
  - destruct ((97 <=? c) && (c <=? 102)) eqn:E2.
    + injection H as <-. replace ((65 <=? c) && (c <=? 70)) with false by lia.
      replace (c - 87 <? 10) with false by lia. lia.
    + destruct ((65 <=? c) && (c <=? 70)) eqn:E3; [|discriminate H]. injection H as <-.
      replace (c - 55 <? 10) with false by lia. lia.
Qed.

Lemma hex_digits : forall h l, h < 16 -> l < 16 -> (h * 16 + l) / 16 = h /\ (h * 16 + l) mod 16 = l.
Proof.
  intros h l Hh Hl. apply (N.div_mod_unique 16); [apply N.mod_lt; lia|exact Hl|].
  rewrite <- N.div_mod'. lia.
Qed.

Lemma hex_encode_app : forall a b, hex_encode (a ++ b) = hex_encode a ++ hex_encode b.
Proof. induction a as [|x a IH]; intros; cbn [hex_encode app]; [reflexivity|]. rewrite IH. reflexivity. Qed.

Lemma hex_encode_length : forall bs, length (hex_encode bs) = (2 * length bs)%nat.
Proof. induction bs as [|b bs IH]; cbn [hex_encode length]; lia. Qed.

Lemma hex_decode_encode : forall bs, bytes bs -> hex_decode (hex_encode bs) = Some bs.
Proof.
  intros bs H. induction H as [|b bs Hb _ IH]; [reflexivity|].
  cbn [hex_encode hex_decode].
  rewrite !hex_val_char, IH by (apply N.div_lt_upper_bound || apply N.mod_lt; lia).
  pose proof (N.div_mod' b 16). repeat f_equal. lia.
Qed.

Lemma hex_encode_text : forall bs, bytes bs -> hex_text (hex_encode bs).
Proof.
  intros bs H. induction H as [|b bs Hb _ IH]; [constructor|].
  cbn [hex_encode]. repeat constructor; [| |exact IH];
    rewrite hex_val_char by (apply N.div_lt_upper_bound || apply N.mod_lt; lia); discriminate.
Qed.

Lemma hex_decode_sound : forall s bs, hex_decode s = Some bs ->
  bytes bs /\ hex_encode bs = map lower s /\ length s = (2 * length bs)%nat.
Proof.
  intros s bs. revert s. induction bs as [|b bs IH]; intros [|c1 [|c2 s]] H;
    cbn [hex_decode] in H; try discriminate H.
  - repeat split. constructor.
  - destruct (hex_val c1), (hex_val c2), (hex_decode s); discriminate H.
  - destruct (hex_val c1) as [h|] eqn:E1; [|discriminate].
    destruct (hex_val c2) as [l|] eqn:E2; [|discriminate].
    destruct (hex_decode s) as [bs'|] eqn:E3; [|discriminate]. injection H as <- <-.
    destruct (IH s E3) as (B & Henc & Hlen).
    apply hex_val_sound in E1 as [H1 C1]. apply hex_val_sound in E2 as [H2 C2].
    destruct (hex_digits h l H1 H2) as [D M].
    repeat split; [constructor; [lia|exact B]| |cbn [length]; lia].
    cbn [hex_encode map]. now rewrite D, M, C1, C2, Henc.
Qed.

Theorem fixed_print_parse : forall size bs, bytes bs -> length bs = size ->
  fixed_of_string size (fixed_to_string bs) = Ok bs.
Proof.
  intros size bs B L. unfold fixed_of_string, fixed_to_string.
  now rewrite hex_decode_encode, L, Nat.eqb_refl.
Qed.

Theorem fixed_parse_sound : forall size s v, fixed_of_string size s = Ok v ->
  bytes v /\ length v = size /\ fixed_to_string v = map lower s /\
  fixed_of_string size (fixed_to_string v) = Ok v.
Proof.
  intros size s v H. unfold fixed_of_string in H.
  destruct (hex_decode s) as [bs|] eqn:E; [|discriminate].
  destruct (Nat.eqb (length bs) size) eqn:L; [|discriminate]. injection H as <-.
  apply Nat.eqb_eq in L. destruct (hex_decode_sound s bs E) as (B & Henc & _).
  repeat split; try assumption. apply fixed_print_parse; assumption.
Qed.

Lemma hex_text_no : forall s c, hex_text s -> hex_val c = None -> mem c s = false.
Proof.
  intros s c Hs Hc. induction Hs as [|x s Hx _ IH]; [reflexivity|]. cbn [mem].
  rewrite IH, orb_false_r. apply N.eqb_neq. congruence.
Qed.

Lemma json_unquote_quote : forall t, hex_text t -> json_unquote (json_quote t) = Some t.
Proof.
  intros t Ht. unfold json_quote, json_unquote.
  destruct (t ++ [dquote]) as [|y r] eqn:E; [now destruct t|]. cbv beta iota zeta. rewrite <- E.
  rewrite removelast_last, last_last, N.eqb_refl. cbn [negb].
  now rewrite (hex_text_no t dquote Ht eq_refl), (hex_text_no t ch_lf Ht eq_refl).
Qed.

Theorem fixed_json_roundtrip : forall size bs, bytes bs -> length bs = size ->
  fixed_of_json size (fixed_to_json bs) = Ok bs.
Proof.
  intros size bs B L. unfold fixed_of_json, fixed_to_json.
  rewrite json_unquote_quote by (apply hex_encode_text; exact B).
  apply fixed_print_parse; assumption.
Qed.

Theorem fixed_json_sound : forall size s v, fixed_of_json size s = Ok v ->
  fixed_of_json size (fixed_to_json v) = Ok v /\ fixed_of_string size (fixed_to_string v) = Ok v.
Proof.
  intros size s v H. unfold fixed_of_json in H. destruct (json_unquote s) as [t|]; [|discriminate].
  destruct (fixed_parse_sound size t v H) as (B & L & _ & P).
  split; [apply fixed_json_roundtrip; assumption|exact P].
Qed.

Lemma be_val_acc_spec : forall l acc, be_val_acc acc l = acc * 256 ^ N.of_nat (length l) + be_val l.
Proof.
  unfold be_val. induction l as [|b l IH]; intros acc; cbn [be_val_acc length].
  - cbn. lia.
  - rewrite (IH (acc * 256 + b)), (IH (0 * 256 + b)), Nat2N.inj_succ, N.pow_succ_r'. lia.
Qed.

Lemma be_val_bound : forall l, bytes l -> be_val l < 256 ^ N.of_nat (length l).
Proof.
  induction 1 as [|b l Hb _ IH]; [reflexivity|].
  unfold be_val. cbn [be_val_acc length]. rewrite be_val_acc_spec, Nat2N.inj_succ, N.pow_succ_r'. nia.
Qed.

Lemma be_bytes_length : forall n v, length (be_bytes n v) = n.
Proof. induction n; intros; cbn [be_bytes length]; auto. Qed.

Lemma be_bytes_bytes : forall n v, bytes (be_bytes n v).
Proof. induction n as [|n IH]; intros; cbn [be_bytes]; constructor; [apply N.mod_lt; lia|apply IH]. Qed.

Lemma be_val_be_bytes_mod : forall n v, be_val (be_bytes n v) = v mod 256 ^ N.of_nat n.
Proof.
  induction n as [|n IH]; intros v.
  - cbn. now rewrite N.mod_1_r.
  - cbn [be_bytes]. unfold be_val. cbn [be_val_acc].
    rewrite be_val_acc_spec, be_bytes_length, IH, Nat2N.inj_succ, N.pow_succ_r'.
    set (p := 256 ^ N.of_nat n). assert (p <> 0) by (apply N.pow_nonzero; lia).
    rewrite (N.mul_comm 256 p), N.mod_mul_r by lia. lia.
Qed.

Lemma be_val_be_bytes : forall n v, v < 256 ^ N.of_nat n -> be_val (be_bytes n v) = v.
Proof. intros. rewrite be_val_be_bytes_mod. now apply N.mod_small. Qed.

Lemma sizes : sig_size = 64%nat /\ mask_size = 8%nat /\ key_size = 32%nat /\ hash_size = 32%nat.
Proof. repeat split; reflexivity. Qed.

Theorem cosi_json_roundtrip : forall sg m, bytes sg -> length sg = sig_size -> m < 2 ^ 64 ->
  cosi_of_json (cosi_to_json (sg, m)) = Ok (sg, m).
Proof.
  intros sg m B L Hm. unfold cosi_of_json, cosi_to_json, cosi_to_string. cbn [fst snd].
  rewrite <- hex_encode_app.
  assert (Ball : bytes (sg ++ be_bytes mask_size m)).
  { apply Forall_app. split; [exact B|apply be_bytes_bytes]. }
  rewrite json_unquote_quote, hex_decode_encode by (try apply hex_encode_text; exact Ball).
  rewrite app_length, be_bytes_length, L, Nat.eqb_refl.
  now rewrite (firstn_exact sg _ _ L), (skipn_exact sg _ _ L), be_val_be_bytes.
Qed.

Theorem cosi_json_sound : forall s sg m, cosi_of_json s = Ok (sg, m) ->
  bytes sg /\ length sg = sig_size /\ m < 2 ^ 64 /\ cosi_of_json (cosi_to_json (sg, m)) = Ok (sg, m).
Proof.
  intros s sg m H. unfold cosi_of_json in H.
  destruct (json_unquote s) as [t|]; [|discriminate].
  destruct (hex_decode t) as [bs|] eqn:E; [|discriminate].
  destruct (Nat.eqb (length bs) (sig_size + mask_size)) eqn:L; [|discriminate].
  apply Nat.eqb_eq in L. destruct (hex_decode_sound t bs E) as (B & _ & _).
  replace sg with (firstn sig_size bs) by congruence.
  replace m with (be_val (skipn sig_size bs)) by congruence. clear H.
  rewrite <- (firstn_skipn sig_size bs) in B. apply Forall_app in B as [Bsg Bm].
  assert (Lsg : length (firstn sig_size bs) = sig_size) by (rewrite firstn_length, L; apply Nat.min_l; lia).
  assert (Hm : be_val (skipn sig_size bs) < 2 ^ 64).
  { apply be_val_bound in Bm. now rewrite skipn_length, L, Nat.add_comm, Nat.add_sub in Bm. }
  repeat split; try assumption. apply cosi_json_roundtrip; assumption.
Qed.
