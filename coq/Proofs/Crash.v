(* Lemmas about Model/Crash.v: the store invariant kept by every call sequence a kernel
   can issue, and what restart computes on a store satisfying it. *)
From Coq Require Import List ZArith NArith Bool Lia FinFun.
Require Import Mixin.Base.Res Mixin.Model.Crash Mixin.Proofs.Lists.
Import ListNotations.
Open Scope N_scope.

Lemma existsb_tl {A} (f : A -> bool) y l : existsb f l = true -> existsb f (y :: l) = true.
Proof. cbn [existsb]. intros ->. apply orb_true_r. Qed.

Lemma memN_true x l : memN x l = true <-> In x l.
Proof. exact (existsb_eqb_In N.eqb x l N.eqb_eq). Qed.

Lemma pair_eqb_true a b : pair_eqb a b = true <-> a = b.
Proof.
  destruct a, b. unfold pair_eqb. cbn [fst snd]. rewrite andb_true_iff, !N.eqb_eq.
  split; [intros [-> ->]; reflexivity | intros [= -> ->]; auto].
Qed.

Lemma memP_true x l : memP x l = true <-> In x l.
Proof. exact (existsb_eqb_In pair_eqb x l pair_eqb_true). Qed.

Lemma find_snap_id id tp s : find_snap id tp = Some s -> s_id s = id /\ In s tp.
Proof. intros H. apply find_some in H. destruct H as [Hin He]. apply N.eqb_eq in He. auto. Qed.

Lemma find_snap_none id tp : find_snap id tp = None -> ~ In id (map s_id tp).
Proof.
  intros H Hin. apply in_map_iff in Hin. destruct Hin as (s & He & Hs).
  pose proof (find_none _ _ H s Hs) as Hn. cbn in Hn. rewrite He, N.eqb_refl in Hn. discriminate Hn.
Qed.

Lemma find_snap_unique tp x : NoDup (map s_id tp) -> In x tp -> find_snap (s_id x) tp = Some x.
Proof.
  intros Hnd Hin. destruct (find_snap (s_id x) tp) as [y|] eqn:E.
  - apply find_snap_id in E. destruct E as [He Hy]. f_equal. exact (NoDup_map_inj s_id tp y x Hnd Hy Hin He).
  - destruct (find_snap_none _ _ E). apply in_map, Hin.
Qed.

Lemma finalize_lookup s txs st t :
  lookup t (fst (fold_left (finalize_tx s) txs st)) =
  match lookup t (fst st) with Some f => Some f | None => if memN t txs then Some s else None end.
Proof.
  revert st. induction txs as [|a txs IH]; intros st; cbn [fold_left]; [destruct (lookup t (fst st)); reflexivity|].
  rewrite IH. unfold finalize_tx, memN. cbn [existsb]. fold (memN t txs). rewrite (N.eqb_sym t a).
  destruct (lookup a (fst st)) eqn:Ea; cbn [fst lookup]; destruct (N.eqb_spec a t) as [<-|_]; cbn [orb].
  - rewrite Ea. reflexivity.
  - reflexivity.
  - rewrite Ea. reflexivity.
  - reflexivity.
Qed.

Lemma finalize_outs s txs st :
  (forall t f, lookup t (fst st) = Some f -> memN t (snd st) = true) ->
  forall t f, lookup t (fst (fold_left (finalize_tx s) txs st)) = Some f ->
    memN t (snd (fold_left (finalize_tx s) txs st)) = true.
Proof.
  revert st. apply (fold_left_inv (fun st => forall t f, lookup t (fst st) = Some f -> memN t (snd st) = true)).
  intros [F O] a _ H t f. unfold finalize_tx. cbn [fst snd].
  destruct (lookup a F); [apply H|]. cbn [fst snd lookup memN existsb]. rewrite (N.eqb_sym t a).
  destruct (a =? t); [reflexivity | apply H].
Qed.

Lemma finalize_known s txs st :
  (forall t, In t txs -> lookup t (fst st) <> None) -> fold_left (finalize_tx s) txs st = st.
Proof.
  induction txs as [|a txs IH]; intros H; cbn [fold_left]; [reflexivity|].
  unfold finalize_tx at 2. destruct (lookup a (fst st)) eqn:Ea; [|destruct (H a (or_introl eq_refl) Ea)].
  apply IH. intros t Ht. apply H. right. exact Ht.
Qed.

Lemma fins_kept_step st c t f : lookup t (fins st) = Some f -> lookup t (fins (exec_call st c)) = Some f.
Proof.
  intros H. destruct c; cbn [exec_call fins]; try exact H. rewrite finalize_lookup. cbn [fst]. rewrite H. reflexivity.
Qed.

(* Each field is what one step of restart reads: inv_rounds validate_round and load_chain,
   inv_fins and inv_txs validate_tx, inv_ids the uniqueness of find_snap.
   inv_cons: the marker names the last consensus snapshot, or - between a consensus-class
   WriteSnapshot and its marker write - the snapshot whose transaction that one references;
   these are the two Ok branches of repair, and sole ms <> sole lc makes its first test
   fail so that the second decides. *)
Record Inv (st : dstate) : Prop := {
  inv_rounds : forall c h, In (c, h) (heads st) -> forall i, i < h ->
      snaps_of (topo st) c i <> [] /\ memP (c, i) (finals st) = true;
  inv_fins : forall t f, lookup t (fins st) = Some f ->
      memN t (outs st) = true /\ exists fs, find_snap f (topo st) = Some fs /\ memN t (s_txs fs) = true;
  inv_txs : forall s, In s (topo st) -> forall t, In t (s_txs s) ->
      memN t (bodies st) = true /\ lookup t (fins st) <> None;
  inv_ids : NoDup (map s_id (topo st));
  inv_cons : exists lc ms, last_cons (topo st) = Some lc /\ find_snap (marker st) (topo st) = Some ms /\
      length (s_txs lc) = 1%nat /\ (ms = lc \/ (s_ref lc = sole ms /\ sole ms <> sole lc))
}.

Lemma inv_step st c : Inv st -> wf_call st c = true -> Inv (exec_call st c).
Proof.
  intros [Hr Hf Ht Hid Hc] Hwf.
  destruct c as [t|t|t|t|t|ch n|ch n|s ch r txs cns ref|s|]; cbn [exec_call];
    try (constructor; assumption).
  - (* CWriteTx *)
    constructor; cbn [topo marker heads finals bodies fins outs]; try assumption.
    intros s Hs t' Ht'. destruct (Ht s Hs t' Ht') as [Hb Hl]. split; [|exact Hl].
    destruct (memN t (bodies st)); [exact Hb | exact (existsb_tl _ t _ Hb)].
  - (* CStartRound *)
    cbn [wf_call] in Hwf.
    constructor; cbn [topo marker heads finals bodies fins outs]; try assumption.
    intros c h [[= <- <-] | Hin] i Hi.
    + destruct (N.eqb_spec n 0) as [->|Hn]; [lia|].
      apply andb_prop in Hwf as [Hh%memP_true Hne].
      destruct (N.eq_dec i (n - 1)) as [->|Hi1].
      * split; [destruct (snaps_of (topo st) ch (n - 1)); [discriminate Hne | discriminate] | apply memP_true; left; reflexivity].
      * destruct (Hr ch (n - 1) Hh i) as [Ha Hb]; [lia|]. split; [exact Ha | exact (existsb_tl _ _ _ Hb)].
    + apply filter_In in Hin. destruct (Hr c h (proj1 Hin) i Hi) as [Ha Hb].
      split; [exact Ha|]. destruct (n =? 0); [exact Hb | exact (existsb_tl _ _ _ Hb)].
  - (* CWriteSnap; of wf_call only the fresh id, the stored bodies and the consensus clause are used *)
    cbn [wf_call] in Hwf. apply andb_prop in Hwf as [[[[Hfresh _]%andb_prop _]%andb_prop Hbodies]%andb_prop Hcons].
    unfold fresh_snap in Hfresh. destruct (find_snap s (topo st)) eqn:Enone; [discriminate Hfresh | clear Hfresh].
    set (new := {| s_id := s; s_chain := ch; s_round := r; s_txs := txs; s_cons := cns; s_ref := ref |}).
    assert (Hother : forall f fs, find_snap f (topo st) = Some fs -> find_snap f (new :: topo st) = Some fs).
    { intros f fs Hfs. unfold find_snap. cbn [find]. change (s_id new) with s.
      destruct (N.eqb_spec s f) as [<-|_]; [rewrite Enone in Hfs; discriminate Hfs | exact Hfs]. }
    constructor; cbn [topo marker heads finals bodies fins outs].
    + intros c h Hin i Hi. destruct (Hr c h Hin i Hi) as [Ha Hb]. split; [|exact Hb].
      unfold snaps_of in *. cbn [filter]. destruct ((s_chain new =? c) && _); [discriminate | exact Ha].
    + intros t f Hl. split; [exact (finalize_outs s txs (fins st, outs st) (fun t f H => proj1 (Hf t f H)) t f Hl)|].
      rewrite finalize_lookup in Hl. cbn [fst] in Hl. destruct (lookup t (fins st)) as [f0|] eqn:El.
      * destruct (Hf t f0 El) as (_ & fs & Hfs & Hm). exists fs. injection Hl as <-. exact (conj (Hother _ _ Hfs) Hm).
      * destruct (memN t txs) eqn:Hm; [|discriminate Hl]. injection Hl as <-.
        exists new. split; [unfold find_snap; cbn [find s_id new]; rewrite N.eqb_refl; reflexivity | exact Hm].
    + intros s0 [<- | Hs0] t Hin; rewrite finalize_lookup; cbn [fst].
      * split; [exact (proj1 (forallb_forall _ _) Hbodies t Hin)|].
        destruct (lookup t (fins st)); [discriminate|]. rewrite (proj2 (memN_true t txs) Hin). discriminate.
      * destruct (Ht s0 Hs0 t Hin) as [Hb Hl]. split; [exact Hb|]. destruct (lookup t (fins st)); [discriminate | contradiction].
    + constructor; [exact (find_snap_none s _ Enone) | exact Hid].
    + destruct Hc as (lc & ms & Hlc & Hms & Hlen & Hrel). pose proof (Hother _ _ Hms) as Hms'.
      unfold last_cons. cbn [find s_cons new]. destruct cns; [|exists lc, ms; auto].
      cbn [negb orb] in Hcons. unfold marker_tx in Hcons. rewrite Hms in Hcons.
      apply andb_prop in Hcons as [[Hlen1%N.eqb_eq _]%andb_prop [Hm1%N.eqb_eq Hm2%negb_true_iff%N.eqb_neq]%andb_prop].
      exists new, ms. repeat split; [exact Hms' | cbn [s_txs new]; lia|]. right. split; [symmetry; exact Hm1 | exact Hm2].
  - (* CMarker *)
    cbn [wf_call] in Hwf.
    destruct Hc as (lc & ms & Hlc & Hms & Hlen & Hrel). rewrite Hlc in Hwf. apply N.eqb_eq in Hwf. subst s.
    constructor; cbn [topo marker heads finals bodies fins outs]; try assumption.
    exists lc, lc. repeat split; [exact Hlc | | exact Hlen | left; reflexivity].
    apply find_snap_unique; [exact Hid | exact (proj1 (find_some _ _ Hlc))].
Qed.

Lemma inv_prefix l : forall st k, Inv st -> wf_calls st l = true -> Inv (exec st (firstn k l)).
Proof.
  induction l as [|c l IH]; intros st k HI Hwf; [rewrite firstn_nil; exact HI|].
  destruct k as [|k]; [exact HI|]. cbn [wf_calls] in Hwf. apply andb_prop in Hwf as [H1 H2].
  exact (IH _ k (inv_step st c HI H1) H2).
Qed.

Lemma wf_calls_app a b st : wf_calls st (a ++ b) = wf_calls st a && wf_calls (exec st a) b.
Proof.
  revert st. induction a as [|c a IH]; intros st; [reflexivity|].
  cbn [app wf_calls]. rewrite IH, andb_assoc. reflexivity.
Qed.

Lemma exec_app : forall a b st, exec st (a ++ b) = exec (exec st a) b.
Proof. intros a b st. unfold exec. apply fold_left_app. Qed.

Lemma run_procs_wf ps st : wf_calls st (run_procs st ps) = true.
Proof.
  revert st. induction ps as [|p ps IH]; intros st; [reflexivity|].
  cbn [run_procs]. rewrite wf_calls_app, IH, andb_true_r.
  unfold guarded. destruct (wf_calls st (compile st p)) eqn:E; [exact E | reflexivity].
Qed.

Lemma nseq_in n i : In i (nseq n) <-> i < n.
Proof.
  unfold nseq. rewrite in_map_iff. split.
  - intros (k & Hk & Hin). apply in_seq in Hin. lia.
  - intros H. exists (N.to_nat i). split; [apply N2Nat.id | apply in_seq; lia].
Qed.

Lemma nseq_nodup n : NoDup (nseq n).
Proof. apply Injective_map_NoDup; [exact Nat2N.inj | apply seq_NoDup]. Qed.

Lemma lookup_diag l t : lookup t (map (fun i => (i, i)) l) = if memN t l then Some t else None.
Proof.
  induction l as [|a l IH]; [reflexivity|]. cbn [map lookup memN existsb]. rewrite IH, (N.eqb_sym t a).
  destruct (N.eqb_spec a t) as [->|_]; reflexivity.
Qed.

(* the custodian snapshot at the head of the topology of [genesis n] *)
Definition cust_snap (n : N) : snap :=
  {| s_id := n; s_chain := 0; s_round := 0; s_txs := [n]; s_cons := true; s_ref := n |}.

Lemma genesis_topo_in n s : In s (topo (genesis n)) <-> s = cust_snap n \/ exists i, i < n /\ s = gen_snap i.
Proof.
  cbn [genesis topo In]. rewrite <- in_rev, in_map_iff. fold (cust_snap n).
  split; (intros [H | (i & H1 & H2)]; [left; symmetry; exact H | right; exists i]).
  - split; [apply nseq_in, H2 | symmetry; exact H1].
  - split; [symmetry; exact H2 | apply nseq_in, H1].
Qed.

Lemma genesis_inv n : Inv (genesis n).
Proof.
  assert (Hnd : NoDup (map s_id (topo (genesis n)))).
  { cbn [genesis topo map s_id]. rewrite map_rev, map_map, map_id. constructor.
    - rewrite <- in_rev, nseq_in. lia.
    - apply NoDup_rev, nseq_nodup. }
  constructor.
  - intros c h Hin i Hi. cbn [genesis heads] in Hin. apply in_map_iff in Hin.
    destruct Hin as (j & [= <- <-] & Hjn). assert (i = 0) by lia. subst i. split.
    + assert (Hj : In (gen_snap j) (snaps_of (topo (genesis n)) j 0)).
      { apply filter_In. split; [apply genesis_topo_in; right; exists j; split; [apply nseq_in, Hjn | reflexivity]|].
        cbn. rewrite N.eqb_refl. reflexivity. }
      intros E. rewrite E in Hj. exact Hj.
    + apply memP_true. cbn [genesis finals]. apply in_map_iff. exists j. auto.
  - intros t f Hl. cbn [genesis fins outs] in *. rewrite lookup_diag in Hl.
    destruct (memN t (nseq (n + 1))) eqn:Hin; [|discriminate Hl]. injection Hl as <-. split; [reflexivity|].
    apply memN_true, nseq_in in Hin. destruct (N.eq_dec t n) as [->|Htn].
    + exists (cust_snap n). split; [apply (find_snap_unique _ (cust_snap n) Hnd), genesis_topo_in; left; reflexivity|].
      apply memN_true. left. reflexivity.
    + exists (gen_snap t). split; [|apply memN_true; left; reflexivity].
      apply (find_snap_unique _ (gen_snap t) Hnd), genesis_topo_in. right. exists t. split; [lia | reflexivity].
  - intros s Hs t Ht. apply genesis_topo_in in Hs.
    assert (Hlt : t < n + 1) by (destruct Hs as [-> | (i & Hi & ->)]; destruct Ht as [<- | []]; lia).
    apply nseq_in, memN_true in Hlt. cbn [genesis bodies fins]. rewrite lookup_diag, Hlt. split; [reflexivity | discriminate].
  - exact Hnd.
  - exists (cust_snap n), (cust_snap n). repeat split; [|left; reflexivity].
    apply (find_snap_unique _ (cust_snap n) Hnd), genesis_topo_in. left. reflexivity.
Qed.

Lemma crash_state_inv n l k : wf_calls (genesis n) l = true -> Inv (crash_state n l k).
Proof. exact (inv_prefix l (genesis n) k (genesis_inv n)). Qed.

Lemma sum_res_zero {A} (f : A -> res N) l : (forall x, In x l -> f x = Ok 0) -> sum_res (map f l) = Ok 0.
Proof.
  induction l as [|x l IH]; intros H; [reflexivity|].
  cbn [map sum_res]. rewrite (H x) by (left; reflexivity).
  rewrite IH by (intros y Hy; apply H; right; exact Hy). reflexivity.
Qed.

Lemma validate_ok st : Inv st -> validate st = Ok 0.
Proof.
  intros [Hr Hf Ht Hid Hc]. apply sum_res_zero. intros [c h] Hin. apply sum_res_zero. intros i Hi. cbn [fst snd] in *.
  apply nseq_in in Hi. destruct (Hr c h Hin i Hi) as [Hne Hfin]. unfold validate_round. rewrite sum_res_zero.
  - cbn [bind]. destruct (snaps_of (topo st) c i); [contradiction|]. rewrite Hfin. reflexivity.
  - intros t Hti. apply in_flat_map in Hti. destruct Hti as (s & Hs & Hts). apply filter_In in Hs.
    destruct (Ht s (proj1 Hs) t Hts) as [Hb Hl]. unfold validate_tx. rewrite Hb.
    destruct (lookup t (fins st)) as [f|] eqn:El; [|contradiction].
    destruct (Hf t f El) as (_ & fs & Hfs & Hm). rewrite Hfs, Hm. reflexivity.
Qed.

Lemma complete_ok st : Inv st -> finalized_complete st = true.
Proof.
  intros [Hr Hf Ht Hid Hc]. apply forallb_forall. intros s Hs.
  apply forallb_forall. intros t Hts. destruct (Ht s Hs t Hts) as [Hb Hl]. unfold tx_complete.
  destruct (lookup t (fins st)) as [f|] eqn:El; [|contradiction].
  destruct (Hf t f El) as (Ho & fs & Hfs & Hm). rewrite Hb, Ho, Hfs, Hm. reflexivity.
Qed.

(* every chain loads, unless some head round is 0 (Chain.loadState then computes round 0 - 1) *)
Lemma load_all_inv st : Inv st -> load_all st = if in_accept_window st then Panic else Ok tt.
Proof.
  intros [Hr _ _ _ _]. unfold load_all, in_accept_window.
  induction (heads st) as [|[c h] hs IH]; [reflexivity|]. cbn [map all_res existsb].
  unfold load_chain at 1. cbn [fst snd]. destruct (N.eqb_spec h 0) as [->|Hh]; [reflexivity|].
  destruct (Hr c h (or_introl eq_refl) (h - 1)) as [Hne _]; [lia|].
  destruct (snaps_of (topo st) c (h - 1)); [contradiction|]. apply IH. intros c' h' Hin. apply Hr. right. exact Hin.
Qed.

Lemma repair_inv st : Inv st ->
  exists lc, last_cons (topo st) = Some lc /\
    repair st = Ok (if marker_lost_region st then marker st else s_id lc).
Proof.
  intros [Hr Hf Ht Hid Hc]. destruct Hc as (lc & ms & Hlc & Hms & Hlen & Hrel).
  exists lc. split; [exact Hlc|].
  destruct (find_some _ _ Hlc) as [Hlcin Hlccons]. destruct (find_snap_id _ _ _ Hms) as [Hmsid _].
  unfold repair, marker_lost_region, marker_tx. rewrite Hms, Hlc.
  destruct (topo st) as [|lst tp] eqn:Etp; [contradiction|].
  destruct (s_cons lst) eqn:Econs; cbn [andb].
  - (* the last topology entry is the last consensus snapshot *)
    unfold last_cons in Hlc. cbn [find] in Hlc. rewrite Econs in Hlc. injection Hlc as ->.
    rewrite Hlen, (N.eqb_refl (s_id lc)), andb_false_r. change (N.of_nat 1 =? 1) with true.
    destruct Hrel as [-> | [Href Hne]].
    + rewrite N.eqb_refl, Hmsid. reflexivity.
    + rewrite (proj2 (N.eqb_neq _ _) Hne), Href, N.eqb_refl. reflexivity.
  - destruct (N.eqb_spec (marker st) (s_id lc)) as [->|_]; cbn [negb andb]; [reflexivity|].
    destruct (N.eqb_spec (s_id lst) (s_id lc)) as [Hreg|_]; [|reflexivity].
    (* two entries with one id: the last entry would be the consensus snapshot lc *)
    rewrite (NoDup_map_inj s_id _ lst lc Hid (or_introl eq_refl) Hlcin Hreg), Hlccons in Econs. discriminate Econs.
Qed.

Lemma recover_inv st : Inv st -> recover st = if in_accept_window st then Panic else repair st.
Proof.
  intros HI. unfold recover. rewrite (validate_ok st HI), (load_all_inv st HI). cbn [bind N.ltb N.compare].
  destruct (repair_inv st HI) as (lc & _ & ->). destruct (in_accept_window st); reflexivity.
Qed.

Lemma last_cons_latest tp c : last_cons tp = Some c ->
  forall c', In c' tp -> s_cons c' = true ->
  exists newer older, tp = newer ++ c :: older /\ (forall x, In x newer -> s_cons x = false) /\ (c' = c \/ In c' older).
Proof.
  induction tp as [|a tp IH]; intros H c' Hin Hcons; [discriminate|].
  unfold last_cons in H. cbn [find] in H. destruct (s_cons a) eqn:Ea.
  - injection H as ->. exists [], tp. split; [reflexivity|]. split; [intros x []|].
    destruct Hin as [Hin | Hin]; [left; symmetry; exact Hin | right; exact Hin].
  - destruct Hin as [<- | Hin]; [rewrite Hcons in Ea; discriminate|].
    destruct (IH H c' Hin Hcons) as (nw & ol & -> & Hnw & Hor).
    exists (a :: nw), ol. split; [reflexivity|]. split; [|exact Hor].
    intros x [<- | Hx]; [exact Ea | apply Hnw; exact Hx].
Qed.
