(* Model/Base58.v: positional notation in a base b >= 2 is a bijection between numbers and digit
   strings without a leading zero, so changing the base of a digit string while keeping its leading
   zeros ([conv]) is undone by changing it back; encode and decode are both [conv], through the alphabet. *)
From Coq Require Import List ZArith NArith Bool Lia.
Require Import Mixin.Gen.Consts Mixin.Model.Base58 Mixin.Proofs.Lists.
Import ListNotations.
Open Scope N_scope.

Definition no_leading (z : N) (l : list N) : Prop :=
  match l with [] => True | x :: _ => x <> z end.

Lemma leading_split : forall z l, exists k r, l = repeat z k ++ r /\ no_leading z r.
Proof.
  intros z l. induction l as [|x l (k & r & -> & Hr)]; [now exists 0%nat, []|].
  destruct (N.eq_dec x z) as [->|Hx]; [now exists (S k), r|now exists 0%nat, (x :: repeat z k ++ r)].
Qed.

Lemma count_leading_repeat : forall z k l,
  no_leading z l -> count_leading z (repeat z k ++ l) = k.
Proof.
  intros z k l Hl. induction k as [|k IH]; cbn [repeat app count_leading].
  - destruct l as [|x l]; [reflexivity|]. cbn [count_leading].
    now rewrite (proj2 (N.eqb_neq x z) Hl).
  - now rewrite N.eqb_refl, IH.
Qed.

Lemma val_snoc : forall b ds d, val b (ds ++ [d]) = val b ds * b + d.
Proof.
  intros b ds d. unfold val. generalize 0.
  induction ds as [|x ds IH]; intros acc; cbn [app val_acc]; [reflexivity|apply IH].
Qed.

Lemma val_repeat0 : forall b k l, val b (repeat 0 k ++ l) = val b l.
Proof.
  intros b k l. unfold val. induction k as [|k IH]; cbn [repeat app val_acc]; [reflexivity|].
  rewrite N.mul_0_l, N.add_0_l. exact IH.
Qed.

Lemma val_acc_ge : forall b l acc, 1 <= b -> acc <= val_acc b acc l.
Proof.
  intros b l. induction l as [|d l IH]; intros acc Hb; cbn [val_acc]; [lia|].
  specialize (IH (acc * b + d) Hb). nia.
Qed.

Lemma val_nonzero : forall b d l, 1 <= b -> d <> 0 -> val b (d :: l) <> 0.
Proof.
  intros b d l Hb Hd. unfold val. cbn [val_acc].
  pose proof (val_acc_ge b l (0 * b + d) Hb). lia.
Qed.

Lemma digits_fuel_acc : forall b f n acc,
  digits_fuel b f n acc = digits_fuel b f n [] ++ acc.
Proof.
  intros b f. induction f as [|f IH]; intros n acc; cbn [digits_fuel]; [reflexivity|].
  destruct (n =? 0); [reflexivity|].
  rewrite (IH (n / b) (n mod b :: acc)), (IH (n / b) [n mod b]).
  rewrite <- app_assoc. reflexivity.
Qed.

Lemma half_bound : forall b n f, 2 <= b -> n < 2 ^ N.of_nat (S f) -> n / b < 2 ^ N.of_nat f.
Proof.
  intros b n f Hb Hn. rewrite Nat2N.inj_succ, N.pow_succ_r' in Hn.
  apply N.div_lt_upper_bound; [lia|]. nia.
Qed.

Lemma digits_fuel_val : forall b f n, 2 <= b -> n < 2 ^ N.of_nat f ->
  val b (digits_fuel b f n []) = n.
Proof.
  intros b f. induction f as [|f IH]; intros n Hb Hn; cbn [digits_fuel].
  - cbn in *. lia.
  - destruct (N.eqb_spec n 0) as [->|Hn0]; [reflexivity|].
    rewrite digits_fuel_acc, val_snoc, IH by auto using half_bound.
    pose proof (N.div_mod' n b). lia.
Qed.

Lemma size_bound : forall n, n < 2 ^ N.of_nat (N.to_nat (N.size n)).
Proof. intro n. rewrite N2Nat.id. apply N.size_gt. Qed.

Lemma val_digits : forall b n, 2 <= b -> val b (digits b n) = n.
Proof. intros. apply digits_fuel_val; [assumption|apply size_bound]. Qed.

Lemma digits_fuel_lt : forall b f n acc, 0 < b ->
  Forall (fun d => d < b) acc -> Forall (fun d => d < b) (digits_fuel b f n acc).
Proof.
  intros b f. induction f as [|f IH]; intros n acc Hb Hacc; cbn [digits_fuel]; [exact Hacc|].
  destruct (n =? 0); [exact Hacc|]. apply IH; [exact Hb|].
  constructor; [apply N.mod_lt; lia|exact Hacc].
Qed.

Lemma digits_lt : forall b n, 0 < b -> Forall (fun d => d < b) (digits b n).
Proof. intros. apply digits_fuel_lt; [assumption|constructor]. Qed.

Lemma digits_fuel_of_val : forall b ds, 2 <= b ->
  Forall (fun d => d < b) ds -> no_leading 0 ds ->
  forall f acc, val b ds < 2 ^ N.of_nat f -> digits_fuel b f (val b ds) acc = ds ++ acc.
Proof.
  intros b ds Hb. induction ds as [|d ds IH] using rev_ind; intros Hlt Hlead f acc Hf.
  - now destruct f.
  - assert (Hnz : val b (ds ++ [d]) <> 0) by (destruct ds; apply val_nonzero; (lia || exact Hlead)).
    apply Forall_app in Hlt as [Hlt Hd%Forall_inv]. rewrite val_snoc in *.
    destruct f as [|f]; [cbn in Hf; lia|]. cbn [digits_fuel]. rewrite (proj2 (N.eqb_neq _ _) Hnz).
    set (n := val b ds * b + d) in *.
    destruct (N.div_mod_unique b (n / b) (val b ds) (n mod b) d) as [Hq ->];
      [apply N.mod_lt; lia|exact Hd|rewrite <- N.div_mod'; lia|].
    apply (half_bound b n f Hb) in Hf. rewrite Hq in *.
    rewrite IH, <- app_assoc by (trivial; now destruct ds). reflexivity.
Qed.

Lemma digits_of_val : forall b ds, 2 <= b ->
  Forall (fun d => d < b) ds -> no_leading 0 ds -> digits b (val b ds) = ds.
Proof.
  intros b ds Hb Hlt Hlead. unfold digits.
  rewrite (digits_fuel_of_val b ds Hb Hlt Hlead); [apply app_nil_r|apply size_bound].
Qed.

Lemma digits_no_leading : forall b n, 2 <= b -> no_leading 0 (digits b n).
Proof.
  intros b n Hb. destruct (leading_split 0 (digits b n)) as (k & r & E & Hno).
  assert (Hv : val b r = n) by (rewrite <- (val_repeat0 b k), <- E; now apply val_digits).
  assert (Hr : Forall (fun d => d < b) (repeat 0 k ++ r)) by (rewrite <- E; apply digits_lt; lia).
  apply Forall_app in Hr as [_ Hr]. now rewrite <- Hv, digits_of_val.
Qed.

Definition conv (b1 b2 : N) (l : list N) : list N :=
  repeat 0 (count_leading 0 l) ++ digits b2 (val b1 l).

Theorem conv_conv : forall b1 b2 l, 2 <= b1 -> 2 <= b2 ->
  Forall (fun d => d < b1) l -> conv b2 b1 (conv b1 b2 l) = l.
Proof.
  intros b1 b2 l H1 H2 Hl. destruct (leading_split 0 l) as (k & r & -> & Hno).
  apply Forall_app in Hl as [_ Hr]. unfold conv.
  now rewrite !count_leading_repeat, !val_repeat0, val_digits, digits_of_val
    by (assumption || now apply digits_no_leading).
Qed.

Lemma conv_lt : forall b1 b2 l, 0 < b2 -> Forall (fun d => d < b2) (conv b1 b2 l).
Proof.
  intros b1 b2 l Hb. apply Forall_app. split; [|now apply digits_lt].
  apply Forall_forall. now intros d ->%repeat_spec.
Qed.

Definition over_alphabet (s : list N) : Prop := Forall (fun c => In c alphabet) s.

Lemma index_of_sound : forall c l i j, index_of c l i = Some j ->
  i <= j /\ j < i + N.of_nat (length l) /\ nth (N.to_nat (j - i)) l 0 = c.
Proof.
  intros c l. induction l as [|x l IH]; intros i j H; cbn [index_of] in H; [discriminate|].
  destruct (N.eqb_spec x c) as [->|_].
  - injection H as <-. rewrite N.sub_diag. cbn. lia.
  - apply IH in H as (H1 & H2 & H3). cbn [length].
    replace (N.to_nat (j - i)) with (S (N.to_nat (j - N.succ i))) by lia. repeat split; [lia|lia|exact H3].
Qed.

Lemma index_of_complete : forall c l i, In c l -> exists j, index_of c l i = Some j.
Proof.
  intros c l. induction l as [|x l IH]; intros i Hin; [destruct Hin|].
  cbn [index_of]. destruct (N.eqb_spec x c) as [_|Hx]; [eexists; reflexivity|].
  destruct Hin as [Hx'|Hin]; [contradiction|]. apply IH, Hin.
Qed.

Lemma alphabet_length : length alphabet = 58%nat.
Proof. reflexivity. Qed.

Lemma char_of_in : forall d, d < 58 -> In (char_of d) alphabet.
Proof. intros d Hd. apply nth_In. rewrite alphabet_length. lia. Qed.

Lemma digit_of_sound : forall c d, digit_of c = Some d -> d < 58 /\ char_of d = c /\ In c alphabet.
Proof.
  intros c d (_ & H2 & H3)%index_of_sound. rewrite alphabet_length in H2. rewrite N.sub_0_r in H3.
  assert (d < 58) by lia. split; [assumption|split; [exact H3|]]. rewrite <- H3. now apply char_of_in.
Qed.

Lemma digit_of_complete : forall c, In c alphabet -> exists d, digit_of c = Some d.
Proof. intros. now apply index_of_complete. Qed.

Definition digit_char_ok (d : N) : bool :=
  match digit_of (char_of d) with Some d' => d' =? d | None => false end.

Lemma digit_char_table : forallb digit_char_ok (map N.of_nat (seq 0 58)) = true.
Proof. vm_compute. reflexivity. Qed.

Lemma digit_of_char_of : forall d, d < 58 -> digit_of (char_of d) = Some d.
Proof.
  intros d Hd. assert (Hin : In d (map N.of_nat (seq 0 58))).
  { rewrite <- (N2Nat.id d). apply in_map, in_seq. lia. }
  apply (proj1 (forallb_forall _ _) digit_char_table) in Hin. unfold digit_char_ok in Hin.
  destruct (digit_of (char_of d)); [f_equal; apply N.eqb_eq, Hin|discriminate Hin].
Qed.

Lemma digit_of_zero_char : digit_of zero_char = Some 0.
Proof. vm_compute. reflexivity. Qed.

Lemma char_of_nonzero : forall d, d < 58 -> d <> 0 -> char_of d <> zero_char.
Proof.
  intros d Hd Hnz Heq. pose proof (digit_of_char_of d Hd) as H.
  rewrite Heq, digit_of_zero_char in H. congruence.
Qed.

Lemma map_opt_digits : forall ds, Forall (fun d => d < 58) ds ->
  map_opt digit_of (map char_of ds) = Some ds.
Proof.
  intros ds H. induction H as [|d ds Hd _ IH]; cbn [map map_opt]; [reflexivity|].
  now rewrite (digit_of_char_of d Hd), IH.
Qed.

Lemma map_opt_sound : forall s ds, map_opt digit_of s = Some ds ->
  map char_of ds = s /\ Forall (fun d => d < 58) ds /\ over_alphabet s /\
  count_leading zero_char s = count_leading 0 ds.
Proof.
  intros s. induction s as [|c s IH]; intros ds H; cbn [map_opt] in H.
  - injection H as <-. repeat split; constructor.
  - destruct (digit_of c) as [d|] eqn:E; [|discriminate].
    destruct (map_opt digit_of s) as [ds'|]; [|discriminate]. injection H as <-.
    destruct (IH ds' eq_refl) as (H1 & H2 & H3 & H4). apply digit_of_sound in E as (E1 & <- & E3).
    cbn [map count_leading]. rewrite H1, H4. repeat split; try (constructor; assumption).
    destruct (N.eqb_spec d 0) as [->|Hd]; [now rewrite N.eqb_refl|].
    now rewrite (proj2 (N.eqb_neq _ _) (char_of_nonzero d E1 Hd)).
Qed.

Lemma map_opt_complete : forall s, over_alphabet s -> exists ds, map_opt digit_of s = Some ds.
Proof.
  intros s H. induction H as [|c s Hc _ [ds Hds]]; [now exists []|].
  destruct (digit_of_complete c Hc) as [d Hd].
  exists (d :: ds). cbn [map_opt]. now rewrite Hd, Hds.
Qed.

Lemma map_opt_none : forall s, map_opt digit_of s = None -> ~ over_alphabet s.
Proof.
  intros s H Ho. destruct (map_opt_complete s Ho) as [ds Hds]. rewrite Hds in H. discriminate.
Qed.

Lemma encode_conv : forall bs, encode bs = map char_of (conv 256 58 bs).
Proof. intros. unfold encode, conv. now rewrite map_app, map_repeat. Qed.

Lemma decode_conv : forall s ds, map_opt digit_of s = Some ds -> decode s = conv 58 256 ds.
Proof.
  intros s ds H. unfold decode, conv. rewrite H.
  now destruct (map_opt_sound s ds H) as (_ & _ & _ & ->).
Qed.

Theorem decode_encode : forall bs, Forall (fun b => b < 256) bs -> decode (encode bs) = bs.
Proof.
  intros bs Hbs. rewrite encode_conv, (decode_conv _ (conv 256 58 bs)).
  - now apply conv_conv.
  - now apply map_opt_digits, conv_lt.
Qed.

Theorem encode_decode : forall s, over_alphabet s -> encode (decode s) = s.
Proof.
  intros s Hs. destruct (map_opt_complete s Hs) as [ds Hds].
  destruct (map_opt_sound s ds Hds) as (<- & Hlt & _).
  now rewrite (decode_conv _ _ Hds), encode_conv, conv_conv.
Qed.

Theorem decode_invalid : forall s, ~ over_alphabet s -> decode s = [].
Proof.
  intros s H. unfold decode. destruct (map_opt digit_of s) as [ds|] eqn:E; [|reflexivity].
  exfalso. apply H. apply (map_opt_sound s ds E).
Qed.

Corollary decode_injective : forall s t, over_alphabet s -> over_alphabet t -> decode s = decode t -> s = t.
Proof. intros s t Hs Ht H. rewrite <- (encode_decode s Hs), <- (encode_decode t Ht), H. reflexivity. Qed.

Lemma decode_nonempty_alphabet : forall s, decode s <> [] -> over_alphabet s.
Proof.
  intros s H. unfold decode in H. destruct (map_opt digit_of s) as [ds|] eqn:E; [|congruence].
  apply (map_opt_sound s ds E).
Qed.

(* Non-ASCII input.  The Go decoder ranges over the RUNES of the text and
   refuses every rune above 255, every rune 128..255 (not in the table) and
   U+FFFD (invalid UTF-8).  Every byte of the UTF-8 form of such a rune, and
   every byte of an invalid sequence, is >= 128, so at the level of bytes this
   is: a text with a byte >= 128 decodes to the empty string - which the byte
   model does (C32_base58_non_ascii, from [over_alphabet_ascii] below). *)
Lemma alphabet_ascii_b : forallb (fun c => c <? 128) alphabet = true.
Proof. vm_compute. reflexivity. Qed.

Lemma over_alphabet_ascii : forall s, over_alphabet s -> Forall (fun c => c < 128) s.
Proof.
  intros s H. eapply Forall_impl; [|exact H]. intros c Hc.
  apply N.ltb_lt, (proj1 (forallb_forall _ _) alphabet_ascii_b c Hc).
Qed.

Lemma encode_over_alphabet : forall bs, over_alphabet (encode bs).
Proof.
  intro bs. rewrite encode_conv. apply Forall_map.
  eapply Forall_impl; [exact char_of_in|now apply conv_lt].
Qed.
