(* Model/Validate.v.  C01: an accepted transaction conserves value ([conservation]).  C05: on a
   transaction that came out of the decoder, over a reachable store, no function of Validate's
   call graph panics ([no_panic]). *)
From Coq Require Import List ZArith NArith Bool Lia ZifyN ZifyNat ZifyBool.
Require Import Mixin.Base.Res Mixin.Gen.Consts Mixin.Model.Fixed Mixin.Proofs.Fixed Mixin.Model.Validate.
Require Import Mixin.Proofs.Res Mixin.Proofs.Lists.
Import ListNotations.
Open Scope Z_scope.

Lemma enc_int_max_val : enc_int_max = 65535. Proof. reflexivity. Qed.
Lemma slice_limit_val : slice_limit = 256. Proof. reflexivity. Qed.
Lemma extra_capacity_val : extra_capacity = 4194304. Proof. reflexivity. Qed.

Lemma len_nonneg {A} (l : list A) : 0 <= len l.
Proof. unfold len. lia. Qed.

Lemma len_cons_nil {A} (l : list A) : l = [] -> len l = 0.
Proof. intros ->. reflexivity. Qed.

Lemma len_one {A} (l : list A) : len l = 1 -> exists x, l = [x].
Proof.
  unfold len. destruct l as [|x [|y l]]; cbn [length]; intros H; try lia. exists x. reflexivity.
Qed.

(* the test [len l = 1] that precedes every [l[0]] of the per-type validators *)
Lemma len_one_cases {A} (l : list A) : (exists x, l = [x]) \/ negb (len l =? 1) = true.
Proof. destruct (len l =? 1) eqn:E; [left; apply len_one, Z.eqb_eq, E|right; reflexivity]. Qed.

Lemma nth_z_some {A} (l : list A) : forall i, 0 <= i < len l -> nth_z l i <> None.
Proof.
  induction l as [|x l IH]; intros i Hi; unfold len in Hi; cbn [length] in Hi; [lia|].
  cbn [nth_z]. destruct (i =? 0) eqn:E0; [discriminate|]. destruct (i <? 0) eqn:E1; [lia|].
  apply IH. unfold len. lia.
Qed.

Lemma nth_z_single {A} (x y : A) i : nth_z [x] i = Some y -> y = x.
Proof. cbn [nth_z]. destruct (i =? 0); [intros [= ->]; reflexivity|]. destruct (i <? 0); discriminate. Qed.

(* The vocabulary of C01.  A special input is a mint or a deposit: it spends no output record
   and carries its amount itself.  Any other input spends the record in its slot, and is backed
   when the view has that record, in the asset of the transaction. *)
Definition special (i : input) : bool :=
  match i_mint i, i_deposit i with None, None => false | _, _ => true end.

Definition special_amount (i : input) : Z :=
  match i_mint i with
  | Some m => m_amount m
  | None => match i_deposit i with Some d => d_amount d | None => 0 end
  end.

Definition in_slot (i : input) : slot := (i_hash i, i_index i).

Fixpoint sum_utxos (v : view) (ins : list input) : option Z :=
  match ins with
  | [] => Some 0
  | i :: r => match v_utxo v (i_hash i) (i_index i), sum_utxos v r with
              | Some u, Some s => Some (u_amount u + s)
              | _, _ => None
              end
  end.

Definition sum_outputs (t : tx) : Z := sum_map o_amount (t_outputs t).

(* [None] when a special input is mixed with other inputs: [conservation], which gives [Some],
   thereby says that an accepted transaction has no such mix *)
Definition sum_inputs (v : view) (t : tx) : option Z :=
  if existsb special (t_inputs t)
  then match t_inputs t with [i] => Some (special_amount i) | _ => None end
  else sum_utxos v (t_inputs t).

Definition input_backed (v : view) (t : tx) (i : input) : Prop :=
  exists u, v_utxo v (i_hash i) (i_index i) = Some u /\ u_asset u = t_asset t.

Lemma slot_eqb_eq a b : slot_eqb a b = true <-> a = b.
Proof.
  destruct a as [h i], b as [h' i']. unfold slot_eqb. cbn [fst snd].
  rewrite andb_true_iff, N.eqb_eq, Z.eqb_eq. split; [intros [-> ->]; reflexivity|intros [= -> ->]; auto].
Qed.

Lemma flt_find_none f k : flt_find f k = None -> ~ In k (map fst f).
Proof.
  induction f as [|[k' u] f IH]; cbn [flt_find map fst]; [intros _ []|].
  destruct (slot_eqb k k') eqn:E; [discriminate|]. intros H [->|Hin]; [|exact (IH H Hin)].
  rewrite (proj2 (slot_eqb_eq k k) eq_refl) in E. discriminate E.
Qed.

Lemma vin_loop_cons v h t ty fork i r idx flt amt nk ks out :
  vin_loop v h t ty fork (i :: r) idx flt amt nk ks = Ok out ->
  if special i then out = VSpecial flt (special_amount i)
  else exists u bits,
    v_utxo v (i_hash i) (i_index i) = Some u /\ u_asset u = t_asset t /\
    flt_find flt (in_slot i) = None /\
    validate_utxo idx u (t_sigs t) (t_agg t) ty nk = Ok bits /\
    vin_loop v h t ty fork r (idx + 1) (flt ++ [(in_slot i, u)]) (amt + u_amount u)
             (nk + u_nkeys u) (ks ++ bits) = Ok out.
Proof.
  cbn [vin_loop]. unfold special, special_amount, in_slot. intros H. res_step H.
  destruct (i_mint i); [injection H as <-; reflexivity|].
  destruct (i_deposit i); [injection H as <-; reflexivity|].
  destruct (flt_find flt (i_hash i, i_index i)) eqn:Ef; [discriminate H|].
  destruct (v_utxo v (i_hash i) (i_index i)) as [u|]; [|discriminate H].
  destruct (negb (u_asset u =? t_asset t)%N) eqn:Ea; [discriminate H|]. res_step H.
  apply bind_ok in H as (bits & Ev & H). apply bind_ok in H as (amt' & (_ & _ & ->)%i_add_inv & H).
  apply negb_false_iff, N.eqb_eq in Ea. exists u, bits. auto.
Qed.

Lemma vin_loop_spec v h t ty fork : forall ins idx flt amt nk ks out,
  vin_loop v h t ty fork ins idx flt amt nk ks = Ok out ->
  match out with
  | VSpecial _ a => existsb special ins = true /\ (forall i, ins = [i] -> a = special_amount i)
  | VDone flt' amt' _ =>
      existsb special ins = false /\ sum_utxos v ins = Some (amt' - amt) /\
      Forall (input_backed v t) ins /\
      map fst flt' = map fst flt ++ map in_slot ins /\
      (NoDup (map fst flt) -> NoDup (map fst flt'))
  end.
Proof.
  induction ins as [|i r IH]; intros idx flt amt nk ks out H.
  - injection H as <-. rewrite Z.sub_diag, app_nil_r. repeat split; auto.
  - apply vin_loop_cons in H. cbn [existsb]. destruct (special i).
    + subst out. split; [reflexivity|]. intros i' [= <-]. reflexivity.
    + destruct H as (u & bits & Hu & Ha & Hf & _ & H). apply IH in H.
      destruct out as [|flt' amt' ks'].
      { destruct H as [H _]. split; [exact H|]. intros i' [= _ ->]. discriminate H. }
      destruct H as (A & S & B & C & D). rewrite map_app in C, D. cbn [map fst] in C, D.
      repeat split.
      * exact A.
      * cbn [sum_utxos]. rewrite Hu, S. f_equal. lia.
      * constructor; [exists u; auto|exact B].
      * rewrite C, <- app_assoc. reflexivity.
      * intros ND. apply D, NoDup_snoc; [exact ND|]. apply flt_find_none, Hf.
Qed.

Lemma input_type_special ins : existsb special ins = true ->
  input_type ins = Some ty_mint \/ input_type ins = Some ty_deposit \/ input_type ins = Some ty_unknown.
Proof.
  induction ins as [|i r IH]; cbn [existsb input_type]; [discriminate|].
  unfold special at 1. destruct (i_mint i); [auto|]. destruct (i_deposit i); [auto|].
  destruct (i_genesis i); [auto|]. exact IH.
Qed.

Lemma validate_inputs_spec v f h t ty fork flt a :
  validate_inputs v f h t ty fork = Ok (flt, a) ->
  (existsb special (t_inputs t) = true /\ (forall i, t_inputs t = [i] -> a = special_amount i)) \/
  (existsb special (t_inputs t) = false /\ sum_utxos v (t_inputs t) = Some a /\
   Forall (input_backed v t) (t_inputs t) /\ NoDup (map in_slot (t_inputs t)) /\
   map fst flt = map in_slot (t_inputs t)).
Proof.
  unfold validate_inputs. intros H. apply bind_ok in H as (r & E & H). apply vin_loop_spec in E.
  destruct r as [flt0 a0|flt0 a0 ks].
  - injection H as <- <-. left. exact E.
  - right. destruct E as (A & S & B & C & D). rewrite Z.sub_0_r in S. cbn [map app] in C, D.
    assert (flt = flt0 /\ a = a0) as [-> ->] by (repeat res_step H; auto).
    rewrite C. repeat split; auto. rewrite <- C. apply D. constructor.
Qed.

Lemma vout_loop_spec f : forall outs seen amt seen' amt',
  vout_loop f outs seen amt = Ok (seen', amt') ->
  amt' = amt + sum_map o_amount outs /\ Forall (fun o => 0 < o_amount o) outs.
Proof.
  induction outs as [|o r IH]; intros seen amt seen' amt' H; unfold sum_map in *;
    cbn [vout_loop fold_right] in *.
  - injection H as _ <-. split; [lia|constructor].
  - do 4 res_step H. apply bind_ok in H as (amt1 & (_ & _ & ->)%i_add_inv & H). apply IH in H as [-> F].
    split; [lia|]. constructor; [lia|exact F].
Qed.

Lemma validate_outputs_spec v f h t a fork :
  validate_outputs v f h t a fork = Ok tt ->
  a = sum_outputs t /\ Forall (fun o => 0 < o_amount o) (t_outputs t).
Proof.
  unfold validate_outputs. intros H. apply bind_ok in H as ([g oa] & E & H).
  apply vout_loop_spec in E as [-> F]. destruct (negb (i_cmp a _ =? 0)) eqn:Ec; [discriminate H|].
  rewrite i_cmp_zero in Ec. apply negb_false_iff, Z.eqb_eq in Ec. split; [exact Ec|exact F].
Qed.

Lemma validate_ok_inv v f h ts fork t :
  validate v f h ts fork t = Ok tt ->
  exists flt a,
    precheck t (tx_type t) = Ok tt /\
    validate_references v t = Ok tt /\
    validate_inputs v f h t (tx_type t) fork = Ok (flt, a) /\ 0 < a /\
    validate_outputs v f h t a fork = Ok tt /\
    dispatch v f h ts t (tx_type t) flt = Ok tt.
Proof.
  unfold validate. intros H.
  apply bind_ok in H as ([] & Hp & H). apply bind_ok in H as ([] & Hr & H).
  apply bind_ok in H as ([flt a] & Hi & H). cbn [fst snd] in H.
  destruct (a <=? 0) eqn:Ha; [discriminate H|]. apply bind_ok in H as ([] & Ho & H).
  exists flt, a. repeat split; auto. lia.
Qed.

Lemma precheck_not_unknown t ty : precheck t ty = Ok tt -> (ty =? ty_unknown) = false.
Proof. unfold precheck. intros H. do 2 res_step H. reflexivity. Qed.

Lemma special_dispatch_single v f h ts t flt :
  existsb special (t_inputs t) = true ->
  (tx_type t =? ty_unknown) = false ->
  dispatch v f h ts t (tx_type t) flt = Ok tt ->
  len (t_inputs t) = 1.
Proof.
  intros Hs Hu Hd. unfold tx_type in *.
  destruct (input_type_special _ Hs) as [E|[E|E]]; rewrite E in *; [| |discriminate Hu].
  - change (validate_mint v h t = Ok tt) in Hd. unfold validate_mint in Hd.
    destruct (len (t_inputs t) =? 1) eqn:E1; [lia|discriminate Hd].
  - change (validate_deposit v f h t ts = Ok tt) in Hd. unfold validate_deposit in Hd.
    destruct (len (t_inputs t) =? 1) eqn:E1; [lia|discriminate Hd].
Qed.

(* C01.  The input loop returns the sum of the spent records and the output loop the sum of the
   outputs, which Validate compares.  The input loop also returns early, at a special input,
   whatever else the transaction spends: the mint and deposit validators then insist on that
   input being the only one ([special_dispatch_single]).
   Proofs/FinalizeValidateLink.v rests on this lemma as well. *)
Theorem conservation v f h ts fork t :
  validate v f h ts fork t = Ok tt ->
  sum_inputs v t = Some (sum_outputs t) /\
  0 < sum_outputs t /\
  Forall (fun o => 0 < o_amount o) (t_outputs t) /\
  Forall (fun i => special i = false -> input_backed v t i) (t_inputs t) /\
  (existsb special (t_inputs t) = false -> NoDup (map in_slot (t_inputs t))).
Proof.
  intros H. destruct (validate_ok_inv _ _ _ _ _ _ H) as (flt & a & Hp & _ & Hi & Ha & Ho & Hd).
  destruct (validate_outputs_spec _ _ _ _ _ _ Ho) as [-> Hpos]. unfold sum_inputs.
  destruct (validate_inputs_spec _ _ _ _ _ _ _ _ Hi) as [[Hs Hone]|(Hs & Hsum & Hb & Hnd & _)]; rewrite Hs.
  - destruct (len_one _ (special_dispatch_single _ _ _ _ _ _ Hs (precheck_not_unknown _ _ Hp) Hd)) as [i Ei].
    rewrite Ei in *. cbn [existsb] in Hs. rewrite orb_false_r in Hs. rewrite <- (Hone i eq_refl).
    repeat split; auto; [|discriminate]. constructor; [congruence|constructor].
  - repeat split; auto. eapply Forall_impl; [|exact Hb]. auto.
Qed.

Theorem special_single v f h ts fork t :
  validate v f h ts fork t = Ok tt ->
  existsb special (t_inputs t) = true -> length (t_inputs t) = 1%nat.
Proof.
  intros H Hs. destruct (validate_ok_inv _ _ _ _ _ _ H) as (flt & a & Hp & _ & _ & _ & _ & Hd).
  pose proof (special_dispatch_single _ _ _ _ _ _ Hs (precheck_not_unknown _ _ Hp) Hd) as Hl.
  unfold len in Hl. lia.
Qed.

Definition amount_ok (a : Z) : bool := (0 <=? a) && le_int (int_bytes a).

Definition dec_input_ok (i : input) : bool :=
  (0 <=? i_index i) && (i_index i <=? Consts.ValInputIndexLimit)
  && match i_genesis i with None => true | Some n => (0 <? n) && le_int n end
  && match i_deposit i with
     | None => true
     | Some d => le_int (len (d_key d)) && (0 <=? d_txlen d) && le_int (d_txlen d)
                 && amount_ok (d_amount d) && (0 <=? d_index d)
     end
  && match i_mint i with
     | None => true
     | Some m => le_int (len (m_group m)) && amount_ok (m_amount m) && (0 <=? m_batch m)
     end.

Definition dec_output_ok (o : output) : bool :=
  amount_ok (o_amount o) && (len (o_keys o) <=? slice_limit) && le_int (len (o_script o))
  && match o_withdrawal o with
     | None => true
     | Some (a, g) => (0 <=? a) && le_int a && (0 <=? g) && le_int g
     end.

Definition dec_sigs_ok (t : tx) : bool :=
  match t_agg t, t_sigs t with
  | Some s, None => agg_signers_ok s
  | None, Some l => negb (len l =? 0) && (len l <=? slice_limit)
  | None, None => true
  | Some _, Some _ => false
  end.

(* DecodeTransaction + the canonical re-encoding test of unmarshalVersionedTransaction:
   version 5; at most 256 inputs / outputs / references / keys per output; index <= 1024;
   every length field fits 16 bits; amounts are non-negative big-endian integers of at
   most 65535 bytes; extra <= 4 MiB; the whole encoding (hence the payload) <= 4 MiB;
   a nil Genesis is never an empty non-nil slice; signatures either maps or aggregated. *)
Definition decodable (t : tx) : bool :=
  (t_version t =? Consts.ValTxVersionHashSignature)
  && (len (t_inputs t) <=? slice_limit) && forallb dec_input_ok (t_inputs t)
  && (len (t_outputs t) <=? slice_limit) && forallb dec_output_ok (t_outputs t)
  && (len (t_refs t) <=? slice_limit) && (len (t_extra t) <=? extra_capacity)
  && (payload_size t <=? Consts.ValTransactionMaximumSize)
  && dec_sigs_ok t.

Definition known_state (s : Z) : Prop :=
  s = st_pledging \/ s = st_accepted \/ s = st_removed \/ s = st_cancelled.

(* the invariants of a reachable store, as seen through its reads (Props/C05.v says which
   storage code establishes each) *)
Record ledger_inv (v : view) (ts : Z) : Prop := {
  inv_utxo_tx : forall h i u, v_utxo v h i = Some u ->
      exists s o, v_tx v h = Some s /\ nth_z (t_outputs (s_tx s)) i = Some o /\ o_type o = u_type u;
  inv_utxo_pos : forall h i u, v_utxo v h i = Some u -> 0 < u_amount u;
  inv_stored : forall h s, v_tx v h = Some s -> decodable (s_tx s) = true /\ t_outputs (s_tx s) <> [];
  inv_node_state : forall n, In n (v_nodes v ts) -> known_state (n_state n);
  inv_node_pledge : forall n, In n (v_nodes v ts) -> n_state n = st_pledging ->
      exists s, v_tx v (n_tx n) = Some s /\ tx_type (s_tx s) = ty_pledge;
  inv_custodian : exists c, v_custodian v ts = Some c /\ NoDup (map fst (c_nodes c));
  inv_balance : forall a chain key bal, v_asset v a = Some (chain, key, bal) -> 0 <= bal }.

(* 10000 units of 10^-8 are 0.0001 XIN; 40960000 is that price for each of the 4096 steps of
   1 KiB in the 4 MiB an extra may hold *)
Lemma parse_price_step : parse Consts.ValExtraStoragePriceStep = Ok 10000.
Proof. vm_compute. reflexivity. Qed.
Lemma parse_claim_fee : parse Consts.ValWithdrawalClaimFee = Ok 10000.
Proof. vm_compute. reflexivity. Qed.
Lemma storage_cap_mul : i_mul 10000 (extra_capacity / extra_step) = Ok 40960000.
Proof. vm_compute. reflexivity. Qed.

(* [walk_cases] walks a goal [e <> Panic] (or [e = Err]) down the conditionals and matches of [e], keeping
   the equation of each decision.  It stops at a [bind], and at the [Panic] leaves that no decision
   on a closed condition refutes: those the hypotheses have to exclude. *)
Ltac walk_cases :=
  repeat match goal with
  | |- Err <> Panic => discriminate
  | |- Ok _ <> Panic => discriminate
  | |- Err = Err => reflexivity
  | |- match ?x with _ => _ end <> Panic => destruct x eqn:?
  | |- match ?x with _ => _ end = Err => destruct x eqn:?
  | |- Panic <> Panic => discriminate
  | |- Panic = Err => discriminate
  end.

Lemma get_extra_limit_no_panic t :
  t_version t = Consts.ValTxVersionHashSignature -> get_extra_limit t <> Panic.
Proof.
  intros Hv. unfold get_extra_limit. rewrite Hv, Z.ltb_irrefl, parse_price_step. cbn [bind].
  rewrite storage_cap_mul. cbn [bind]. walk_cases.
  (* between one price step and 4096 of them the count of steps fits 64 bits *)
  destruct (i_count_spec (o_amount o) 10000) as [_ Hc].
  destruct (Hc ltac:(lia) ltac:(lia)) as [[-> _] _]; [apply Z.div_lt_upper_bound; lia|].
  cbn [bind]. walk_cases.
Qed.

Lemma dec_input_enc i : dec_input_ok i = true -> enc_input_ok i = true.
Proof.
  unfold dec_input_ok, enc_input_ok, amount_ok, le_int. rewrite enc_int_max_val.
  destruct (i_genesis i), (i_deposit i), (i_mint i); cbn [opt_len]; lia.
Qed.

Lemma dec_output_enc o : dec_output_ok o = true -> enc_output_ok o = true.
Proof.
  unfold dec_output_ok, enc_output_ok, amount_ok, le_int. rewrite enc_int_max_val, slice_limit_val.
  destruct (o_withdrawal o) as [[a g]|]; lia.
Qed.

Lemma decodable_version t : decodable t = true -> t_version t = Consts.ValTxVersionHashSignature.
Proof. unfold decodable. lia. Qed.

Lemma dec_output_keys o : dec_output_ok o = true -> (len (o_keys o) <=? slice_limit) = true.
Proof.
  unfold dec_output_ok. intros H. do 2 apply andb_prop in H as [H _]. apply andb_prop in H as [_ H]. exact H.
Qed.

Lemma decodable_marshal t : decodable t = true -> payload_marshal t = Ok (payload_size t).
Proof.
  intros Hd. unfold payload_marshal.
  assert (enc_ok t = true /\ redecode_ok t = true) as [-> ->]; [|reflexivity].
  unfold decodable in Hd. do 8 apply andb_prop in Hd as [Hd ?]. unfold enc_ok, redecode_ok.
  rewrite (forallb_impl _ _ (t_inputs t) dec_input_enc), (forallb_impl _ _ (t_outputs t) dec_output_enc),
    (forallb_impl _ _ (t_outputs t) dec_output_keys) by assumption.
  unfold le_int in *. rewrite enc_int_max_val, slice_limit_val in *.
  split; lia.
Qed.

Lemma precheck_no_panic t ty : decodable t = true -> precheck t ty <> Panic.
Proof.
  intros Hd. unfold precheck. rewrite (decodable_marshal t Hd). cbn [bind]. walk_cases.
  apply bind_not_panic; [apply get_extra_limit_no_panic, decodable_version, Hd|intros limit _]. walk_cases.
Qed.

Lemma precheck_ok_counts t ty : precheck t ty = Ok tt -> 1 <= len (t_inputs t) /\ 1 <= len (t_outputs t).
Proof. unfold precheck. intros H. do 3 res_step H. lia. Qed.

Lemma validate_references_no_panic v t : validate_references v t <> Panic.
Proof. unfold validate_references. walk_cases. Qed.

Lemma validate_utxo_no_panic index u sigs agg ty offset :
  0 <= index -> validate_utxo index u sigs agg ty offset <> Panic.
Proof.
  intros Hi. unfold validate_utxo. walk_cases.
  (* sigs[index]: the test [index >= len sigs] came first *)
  exfalso. eapply nth_z_some; [|eassumption]. lia.
Qed.

Lemma vin_loop_no_panic v h t ty fork :
  (forall hh i u, v_utxo v hh i = Some u -> 0 < u_amount u) ->
  forall ins idx flt amt nkeys ks, 0 <= idx -> 0 <= amt ->
  vin_loop v h t ty fork ins idx flt amt nkeys ks <> Panic.
Proof.
  intros Hpos. induction ins as [|i r IH]; intros idx flt amt nkeys ks Hidx Hamt; cbn [vin_loop]; walk_cases.
  apply bind_not_panic; [apply validate_utxo_no_panic, Hidx|intros bits _].
  assert (Hu : 0 < u_amount u) by eauto. rewrite (i_add_ok _ _ Hamt Hu). apply IH; clear - Hidx Hamt Hu; lia.
Qed.

Lemma validate_inputs_no_panic v f h t ty fork :
  (forall hh i u, v_utxo v hh i = Some u -> 0 < u_amount u) ->
  validate_inputs v f h t ty fork <> Panic.
Proof.
  intros Hpos. unfold validate_inputs.
  apply bind_not_panic; [apply vin_loop_no_panic; [exact Hpos|lia|lia]|intros r _]. walk_cases.
Qed.

Lemma vout_loop_no_panic f : forall outs seen amt, 0 <= amt -> vout_loop f outs seen amt <> Panic.
Proof.
  induction outs as [|o r IH]; intros seen amt Ha; cbn [vout_loop]; walk_cases.
  assert (Ho : 0 < o_amount o) by (apply Z.leb_gt; assumption).
  rewrite (i_add_ok _ _ Ha Ho). apply IH. clear - Ha Ho. lia.
Qed.

Lemma validate_outputs_no_panic v f h t a fork : validate_outputs v f h t a fork <> Panic.
Proof.
  unfold validate_outputs. apply bind_not_panic; [apply vout_loop_no_panic; lia|intros r _]. walk_cases.
Qed.

Lemma kernel_output_type_range x ty : kernel_output_type x = Some ty ->
  In ty [ty_wsubmit; ty_wclaim; ty_pledge; ty_cancel; ty_accept; ty_remove; ty_cupdate; ty_cslash].
Proof.
  unfold kernel_output_type.
  repeat match goal with |- (if ?c then _ else _) = _ -> _ => destruct c end;
    intros H; inversion H; subst; cbn [In]; tauto.
Qed.

Lemma output_type_range outs : forall b,
  In (output_type outs b)
     [ty_script; ty_unknown; ty_wsubmit; ty_wclaim; ty_pledge; ty_cancel; ty_accept; ty_remove;
      ty_cupdate; ty_cslash].
Proof.
  induction outs as [|o r IH]; intros b; cbn [output_type].
  - destruct b; cbn [In]; tauto.
  - destruct (kernel_output_type (o_type o)) eqn:E; [|apply IH].
    apply kernel_output_type_range in E. cbn [In] in *. tauto.
Qed.

Lemma output_type_not_special outs b : output_type outs b <> ty_mint /\ output_type outs b <> ty_deposit.
Proof.
  pose proof (output_type_range outs b) as H. cbn [In] in H.
  split; intros E; rewrite E in H; repeat (destruct H as [H|H]; [discriminate H|]); exact H.
Qed.

Lemma no_special_of_type t :
  tx_type t <> ty_mint -> tx_type t <> ty_deposit -> tx_type t <> ty_unknown ->
  existsb special (t_inputs t) = false.
Proof.
  intros H1 H2 H3. destruct (existsb special (t_inputs t)) eqn:E; [|reflexivity].
  unfold tx_type in *. destruct (input_type_special _ E) as [X|[X|X]]; rewrite X in *; congruence.
Qed.

Lemma single_input_type t i : t_inputs t = [i] ->
  (tx_type t = ty_mint -> i_mint i <> None) /\ (tx_type t = ty_deposit -> i_deposit i <> None).
Proof.
  unfold tx_type. intros ->. cbn [input_type].
  pose proof (output_type_not_special (t_outputs t) true) as [Hm Hd].
  destruct (i_mint i), (i_deposit i), (i_genesis i); split; intros H; try discriminate H; congruence.
Qed.

Lemma validate_script_no_panic flt : validate_script flt <> Panic.
Proof. unfold validate_script. walk_cases. Qed.

Lemma validate_mint_no_panic v h t : tx_type t = ty_mint -> validate_mint v h t <> Panic.
Proof.
  intros Hty. unfold validate_mint.
  destruct (len_one_cases (t_inputs t)) as [[i Ei]| ->]; [|discriminate].
  pose proof (proj1 (single_input_type t i Ei) Hty). rewrite Ei. walk_cases. contradiction.
Qed.

Lemma verify_deposit_data_no_panic v t ts i :
  ledger_inv v ts -> t_inputs t = [i] -> i_deposit i <> None -> verify_deposit_data v t <> Panic.
Proof.
  intros L Ei Hd. unfold verify_deposit_data. rewrite Ei. walk_cases; [|contradiction].
  rewrite i_add_ok; [cbn [bind]; walk_cases|eapply inv_balance; eassumption|apply Z.leb_gt; assumption].
Qed.

Lemma validate_deposit_no_panic v f h t ts :
  ledger_inv v ts -> tx_type t = ty_deposit -> validate_deposit v f h t ts <> Panic.
Proof.
  intros L Hty. unfold validate_deposit.
  destruct (len_one_cases (t_inputs t)) as [[i Ei]| ->]; [|discriminate].
  destruct (len_one_cases (t_outputs t)) as [[o ->]| ->]; [|walk_cases].
  pose proof (proj2 (single_input_type t i Ei) Hty) as Hd.
  destruct (inv_custodian v ts L) as (c & -> & _). walk_cases.
  apply bind_not_panic; [exact (verify_deposit_data_no_panic v t ts i L Ei Hd)|intros _ _].
  rewrite Ei. walk_cases. contradiction.
Qed.

Lemma validate_withdrawal_submit_no_panic t flt :
  t_outputs t <> [] -> validate_withdrawal_submit t flt <> Panic.
Proof.
  intros Ho. unfold validate_withdrawal_submit, tail_all_script.
  destruct (t_outputs t); [congruence|]. walk_cases. cbn [bind]. walk_cases.
Qed.

Lemma validate_withdrawal_claim_no_panic v f t flt ts :
  ledger_inv v ts -> t_outputs t <> [] -> validate_withdrawal_claim v f t flt ts <> Panic.
Proof.
  intros L Ho. unfold validate_withdrawal_claim, tail_all_script. rewrite parse_claim_fee.
  destruct (inv_custodian v ts L) as (c & -> & _).
  destruct (t_outputs t) as [|claim outs]; [congruence|].
  destruct (len_one_cases (t_refs t)) as [[r ->]| ->]; [|walk_cases; cbn [bind]; walk_cases].
  walk_cases. cbn [bind]. walk_cases.
  (* submit.Outputs[0]: a stored transaction has an output *)
  edestruct inv_stored as [_ Hne]; eauto.
Qed.

Lemma flt_find_self k u : flt_find [(k, u)] k = Some u.
Proof. cbn [flt_find]. rewrite (proj2 (slot_eqb_eq k k) eq_refl). reflexivity. Qed.

Lemma validate_node_pledge_no_panic v f t flt ts :
  map fst flt = map in_slot (t_inputs t) -> validate_node_pledge v f t flt ts <> Panic.
Proof.
  intros Hf. unfold validate_node_pledge.
  destruct (len_one_cases (t_inputs t)) as [[i Ei]| ->]; [|walk_cases].
  rewrite Ei in *. destruct flt as [|[k u] [|? ?]]; try discriminate Hf. injection Hf as ->.
  unfold in_slot. rewrite flt_find_self. walk_cases.
Qed.

(* over entries in known states the loop does not reach [pledging.Signer] on nil, and what it
   returns is pledging *)
Lemma find_pledging_spec ns : forall p,
  (forall n, In n ns -> known_state (n_state n)) ->
  match find_pledging ns p with
  | Ok (Some pl) => p = Some pl \/ (In pl ns /\ n_state pl = st_pledging)
  | Panic => False
  | _ => True
  end.
Proof.
  induction ns as [|n r IH]; intros p Hk; cbn [find_pledging]; [destruct p; auto|].
  pose proof (Hk n (or_introl eq_refl)) as Kn.
  assert (Hr : forall m, In m r -> known_state (n_state m)) by (intros; apply Hk; right; assumption).
  destruct (final_state (n_state n)) eqn:Ef; [|destruct p as [q|]; [exact I|]].
  - specialize (IH p Hr). destruct (find_pledging r p) as [[pl|]| |]; auto.
    destruct IH as [X|[X Y]]; [auto|]. right. split; [right; exact X|exact Y].
  - destruct (n_state n =? st_pledging) eqn:Ep.
    + specialize (IH (Some n) Hr). destruct (find_pledging r (Some n)) as [[pl|]| |]; auto.
      right. destruct IH as [[= <-]|[X Y]]; [split; [left; reflexivity|lia]|split; [right; exact X|exact Y]].
    + unfold final_state, known_state, st_pledging, st_accepted, st_removed, st_cancelled in *. lia.
Qed.

Lemma extra_as_signer_pledge s :
  decodable s = true -> tx_type s = ty_pledge -> extra_as_signer s = Ok (key_of (t_extra s)).
Proof.
  intros Hd Hty. unfold extra_as_signer. rewrite (decodable_version s Hd), Z.ltb_irrefl, Hty.
  reflexivity.
Qed.

Lemma validate_node_accept_no_panic v f t ts :
  ledger_inv v ts -> validate_node_accept v f t ts <> Panic.
Proof.
  intros L. unfold validate_node_accept.
  destruct (len_one_cases (t_inputs t)) as [[i ->]| ->]; [|walk_cases].
  pose proof (find_pledging_spec (v_nodes v ts) None (inv_node_state v ts L)) as Hp. walk_cases.
  destruct (find_pledging (v_nodes v ts) None) as [[pl|]| |]; cbn [bind]; [|walk_cases|walk_cases|contradiction].
  destruct Hp as [[=]|[Hin Hst]]. destruct (inv_node_pledge v ts L pl Hin Hst) as (s & Hs & Hty).
  destruct (inv_stored v ts L _ _ Hs) as [Hd Hne].
  destruct (negb (n_tx pl =? i_hash i)%N) eqn:Eh; [discriminate|]. apply negb_false_iff, N.eqb_eq in Eh.
  rewrite <- Eh, Hs, (extra_as_signer_pledge _ Hd Hty). cbn [bind]. walk_cases.
Qed.

Lemma validate_node_remove_no_panic v t ts :
  ledger_inv v ts -> Forall (input_backed v t) (t_inputs t) -> validate_node_remove v t <> Panic.
Proof.
  intros L Hb. unfold validate_node_remove.
  destruct (len_one_cases (t_inputs t)) as [[i Ei]| ->]; [|walk_cases].
  rewrite Ei in *. inversion Hb as [|? ? [u [Hu _]] _]; subst.
  destruct (inv_utxo_tx v ts L _ _ _ Hu) as (s & o & Hs & _ & _). rewrite Hs.
  destruct (inv_stored v ts L _ _ Hs) as [_ Hne]. walk_cases.
Qed.

Lemma validate_utxo_no_sigs idx u sigs agg ty nk bits :
  validate_utxo idx u sigs agg ty nk = Ok bits ->
  (u_type u =? ot_script) || (u_type u =? ot_remove) = false -> bits = [].
Proof. unfold validate_utxo. intros H E. rewrite E in H. repeat res_step H; reflexivity. Qed.

(* a node-cancel typed transaction whose single ordinary input passed validateInputs spends a
   script (or node-remove) typed output record: a pledge record adds no key/signature pair and
   the cancel type is not exempted from the "signatures >= inputs" gate *)
Lemma cancel_input_type v f h t fork flt a i :
  t_inputs t = [i] -> special i = false ->
  validate_inputs v f h t ty_cancel fork = Ok (flt, a) ->
  exists u, v_utxo v (i_hash i) (i_index i) = Some u /\
            ((u_type u =? ot_script) || (u_type u =? ot_remove)) = true.
Proof.
  intros Ei Hs H. unfold validate_inputs in H. rewrite Ei in H.
  apply bind_ok in H as (r & E & H). apply vin_loop_cons in E. rewrite Hs in E.
  destruct E as (u & bits & Hu & _ & _ & Hv & [= <-]). exists u. split; [exact Hu|].
  destruct ((u_type u =? ot_script) || (u_type u =? ot_remove)) eqn:Et; [reflexivity|].
  rewrite (validate_utxo_no_sigs _ _ _ _ _ _ _ Hv Et) in H. discriminate H.
Qed.

(* over a consistent ledger the transaction that produced the spent record has a single output of
   that record's type, so validateNodeCancel stops at the type test of the pledge output *)
Lemma validate_node_cancel_err v f t ts h fork flt a :
  ledger_inv v ts -> tx_type t = ty_cancel ->
  validate_inputs v f h t ty_cancel fork = Ok (flt, a) ->
  validate_node_cancel v f t ts = Err.
Proof.
  intros L Hty Hin. unfold validate_node_cancel.
  destruct (len_one_cases (t_inputs t)) as [[i Ei]| ->]; [|walk_cases].
  assert (Hns : existsb special (t_inputs t) = false)
    by (apply no_special_of_type; rewrite Hty; discriminate).
  rewrite Ei in Hns. cbn [existsb] in Hns. rewrite orb_false_r in Hns.
  destruct (cancel_input_type _ _ _ _ _ _ _ _ Ei Hns Hin) as (u & Hu & Hut).
  destruct (inv_utxo_tx v ts L _ _ _ Hu) as (s & o & Hs & Ho & Hot).
  pose proof (find_pledging_spec (v_nodes v ts) None (inv_node_state v ts L)) as Hp.
  rewrite Ei, Hs. walk_cases.
  destruct (find_pledging (v_nodes v ts) None) as [[pl|]| |]; cbn [bind]; [|walk_cases|walk_cases|contradiction].
  destruct (len_one_cases (t_outputs (s_tx s))) as [[po Epo]| ->]; [|walk_cases].
  rewrite Epo in *. apply nth_z_single in Ho as ->.
  destruct (o_type po =? ot_pledge) eqn:Ep; [|cbn [negb]; walk_cases].
  apply Z.eqb_eq in Ep. rewrite <- Hot, Ep in Hut. discriminate Hut.
Qed.

(* Model/Custodian.v models validateCustodianUpdateNodes a second time, for C34: over raw
   bytes, with an abstract signature check and the re-sort-and-compare of the source, where the
   model used here has keys as numbers, the checks as [facts] and an ascending test.  No lemma
   relates the two. *)
Lemma addr_eqb_eq a b : addr_eqb a b = true <-> a = b.
Proof.
  destruct a, b. unfold addr_eqb. cbn [fst snd]. rewrite andb_true_iff, !N.eqb_eq.
  split; [intros [-> ->]; reflexivity|intros [= -> ->]; auto].
Qed.

Lemma amap_remove_notin m k : ~ In k (map fst m) -> amap_remove m k = m.
Proof.
  induction m as [|[k' p] m IH]; cbn [amap_remove map fst]; [reflexivity|]. intros H.
  destruct (addr_eqb k k') eqn:E.
  - apply addr_eqb_eq in E. subst. exfalso. apply H. left. reflexivity.
  - f_equal. apply IH. intros X. apply H. right. exact X.
Qed.

Lemma amap_build_len l : forall m,
  NoDup (map fst l) -> (forall k, In k (map fst l) -> ~ In k (map fst m)) ->
  len (amap_build l m) = len l + len m.
Proof.
  induction l as [|[k p] l IH]; intros m ND Hd; cbn [amap_build].
  - unfold len. cbn [length]. lia.
  - cbn [map fst] in ND. inversion ND as [|? ? Hk ND']; subst.
    rewrite amap_remove_notin by (apply Hd; left; reflexivity).
    rewrite IH.
    + unfold len. cbn [length]. lia.
    + exact ND'.
    + intros k0 Hin [X|X]; [subst; exact (Hk Hin)|]. exact (Hd k0 (or_intror Hin) X).
Qed.

Lemma price_loop_no_panic : forall nodes flt total, 0 <= total -> price_loop nodes flt total <> Panic.
Proof.
  induction nodes as [|[c p] r IH]; intros flt total Ht; cbn [price_loop]; [discriminate|].
  assert (P1 : 0 < new_integer Consts.ValCustodianNodeNewPrice) by reflexivity.
  assert (P2 : 0 < new_integer Consts.ValCustodianNodeUpdatePrice) by reflexivity.
  destruct (amap_find flt c) as [old|]; [destruct (negb (addr_eqb old p))|];
    rewrite ?i_add_ok by lia; apply IH; lia.
Qed.

Lemma validate_custodian_update_no_panic v f t ts :
  ledger_inv v ts -> t_outputs t <> [] -> validate_custodian_update v f t ts <> Panic.
Proof.
  intros L Ho. unfold validate_custodian_update.
  destruct (inv_custodian v ts L) as (c & -> & Hnd).
  rewrite (amap_build_len (c_nodes c) [] Hnd) by (intros k _ []).
  change (len (@nil (addr * addr))) with 0. rewrite Z.add_0_r, Z.eqb_refl. walk_cases.
  apply bind_not_panic; [apply price_loop_no_panic; lia|intros r _]. walk_cases.
Qed.

Lemma plain_inputs v f h t ty fork flt a :
  tx_type t <> ty_mint -> tx_type t <> ty_deposit -> tx_type t <> ty_unknown ->
  validate_inputs v f h t ty fork = Ok (flt, a) ->
  Forall (input_backed v t) (t_inputs t) /\ map fst flt = map in_slot (t_inputs t).
Proof.
  intros T1 T2 T3 Hi. pose proof (no_special_of_type t T1 T2 T3) as Hns.
  destruct (validate_inputs_spec _ _ _ _ _ _ _ _ Hi) as [[X _]|(_ & _ & Hb & _ & Hf)]; [congruence|auto].
Qed.

Lemma dispatch_no_panic v f h ts fork t flt a :
  ledger_inv v ts -> t_outputs t <> [] -> tx_type t <> ty_unknown ->
  validate_inputs v f h t (tx_type t) fork = Ok (flt, a) ->
  dispatch v f h ts t (tx_type t) flt <> Panic.
Proof.
  intros L Hone Hu Ei. pose proof (fun T1 T2 => plain_inputs _ _ _ _ _ _ _ _ T1 T2 Hu Ei) as Hplain.
  unfold dispatch. walk_cases.
  - apply validate_script_no_panic.
  - apply validate_mint_no_panic, Z.eqb_eq. assumption.
  - apply validate_deposit_no_panic; [exact L|apply Z.eqb_eq; assumption].
  - apply validate_withdrawal_submit_no_panic, Hone.
  - apply validate_withdrawal_claim_no_panic; assumption.
  - apply validate_node_pledge_no_panic, Hplain; apply Z.eqb_neq; assumption.
  - assert (Hc : tx_type t = ty_cancel) by (apply Z.eqb_eq; assumption). rewrite Hc in Ei.
    rewrite (validate_node_cancel_err _ _ _ _ _ _ _ _ L Hc Ei). discriminate.
  - apply validate_node_accept_no_panic, L.
  - apply (validate_node_remove_no_panic v t ts L), Hplain; apply Z.eqb_neq; assumption.
  - apply validate_custodian_update_no_panic; assumption.
Qed.

Theorem no_panic v f h ts fork t :
  decodable t = true -> ledger_inv v ts -> validate v f h ts fork t <> Panic.
Proof.
  intros Hd L. unfold validate.
  apply bind_not_panic; [apply precheck_no_panic, Hd|intros [] Ep].
  apply bind_not_panic; [apply validate_references_no_panic|intros _ _].
  apply bind_not_panic; [apply validate_inputs_no_panic, (inv_utxo_pos v ts L)|intros [flt a] Ei].
  cbn [fst snd]. destruct (a <=? 0); [discriminate|].
  apply bind_not_panic; [apply validate_outputs_no_panic|intros _ _].
  apply (dispatch_no_panic v f h ts fork t flt a L);
    [|apply Z.eqb_neq, (precheck_not_unknown _ _ Ep)|exact Ei].
  intros E. apply precheck_ok_counts in Ep as [_ Ep]. rewrite E in Ep. exact (Ep eq_refl).
Qed.

(* witnesses for the two counterexamples of Props/C05.v: a view whose every output record is a
   script record of amount [a], facts that verify nothing, a transaction spending record (1, 0) *)
Definition wit_view (a : Z) : view :=
  {| v_utxo := fun _ _ => Some {| u_type := ot_script; u_asset := xin; u_amount := a; u_nkeys := 1;
                                  u_script := [255; 254; 1]%N; u_lock := 0%N |};
     v_tx := fun _ => None; v_deposit_lock := fun _ => 0%N; v_last_mint := None;
     v_nodes := fun _ => []; v_custodian := fun _ => None; v_asset := fun _ => None;
     v_ghost_ok := fun _ _ _ => true |}.
Definition wit_facts : facts :=
  {| f_check_key := fun _ => true; f_agg_ok := false; f_deposit_sig := false; f_claim_sig := false;
     f_accept_sig := false; f_cancel_ghost := Panic; f_cancel_sig := false; f_cust_prev_sig := false;
     f_cust_node_sigs := [] |}.
Definition wit_out : output :=
  {| o_type := ot_script; o_amount := 99; o_keys := [7%N]; o_mask := 9%N; o_script := [255; 254; 1]%N;
     o_withdrawal := None |}.
Definition wit_tx (outs : list output) : tx :=
  {| t_version := 5; t_asset := xin;
     t_inputs := [{| i_hash := 1%N; i_index := 0; i_genesis := None; i_deposit := None; i_mint := None |}];
     t_outputs := outs; t_refs := []; t_extra := []; t_agg := None; t_sigs := Some [[(0, true)]] |}.
