(* The insertion sort by (timestamp, id) of Model/Membership.v (same argument as
   in Proofs/Election.v, whose records carry Z timestamps), [latest_by_id] and
   [accepted_filter]; then: nodeSequenceWithoutState and readAllNodes do not
   depend on the order in which Go iterates the map of latest records. *)
From Coq Require Import List NArith Bool Lia ZifyN ZifyBool Permutation Sorted.
Require Import Mixin.Base.Res Mixin.Model.Membership Mixin.Proofs.Lists.
Import ListNotations.
Open Scope N_scope.

(* ordered, not strictly, by (timestamp, id): nothing later is [rec_lt] something
   earlier.  ([ts_sorted] in Proofs/Membership.v is the order by timestamp alone.) *)
Fixpoint ksorted (l : list nrec) : Prop :=
  match l with
  | [] => True
  | x :: l' => Forall (fun y => rec_lt y x = false) l' /\ ksorted l'
  end.

Lemma insert_perm : forall r l, Permutation (insert_rec r l) (r :: l).
Proof.
  intros r l. induction l as [|x l IH]; cbn [insert_rec]; [reflexivity|].
  destruct (rec_lt r x); [reflexivity|]. rewrite IH. apply perm_swap.
Qed.

Lemma sort_recs_perm_self : forall l, Permutation (sort_recs l) l.
Proof.
  intros l. unfold sort_recs. rewrite <- (app_nil_r l) at 2. generalize (@nil nrec).
  induction l as [|r l IH]; intros acc; cbn [fold_left app]; [reflexivity|].
  rewrite IH, insert_perm. symmetry. apply Permutation_middle.
Qed.

Lemma insert_ksorted : forall r l, ksorted l -> ksorted (insert_rec r l).
Proof.
  intros r l. induction l as [|x l IH]; cbn [insert_rec ksorted]; [auto|]. intros [Hx Hl].
  destruct (rec_lt r x) eqn:E; cbn [ksorted].
  - repeat split; auto.
    constructor; [|eapply Forall_impl; [|exact Hx]; cbn; intros y Hy]; unfold rec_lt in *; lia.
  - split; [|auto]. rewrite insert_perm. constructor; assumption.
Qed.

Lemma sort_recs_ksorted : forall l, ksorted (sort_recs l).
Proof.
  intros l. apply (fold_left_inv ksorted); [|exact I]. intros a b _. apply insert_ksorted.
Qed.

Lemma ksorted_strongly : forall l, ksorted l -> StronglySorted (fun x y => rec_lt y x = false) l.
Proof. induction l as [|x l IH]; cbn [ksorted]; [constructor|intros [Hx Hl]; constructor; auto]. Qed.

Lemma ksorted_perm_unique : forall l1 l2,
  Permutation l1 l2 -> NoDup (map r_id l1) -> ksorted l1 -> ksorted l2 -> l1 = l2.
Proof.
  intros l1 l2 Hp Hnd S1 S2.
  apply (StronglySorted_unique (fun x y => rec_lt y x = false) l1 l2);
    [|exact Hp|apply ksorted_strongly; assumption..].
  intros a b Ha Hb L1 L2. apply (NoDup_map_inj r_id l1); auto. unfold rec_lt in *. lia.
Qed.

Lemma sort_recs_perm : forall l l',
  Permutation l l' -> NoDup (map r_id l) -> sort_recs l = sort_recs l'.
Proof.
  intros l l' Hp Hnd. apply ksorted_perm_unique; try apply sort_recs_ksorted.
  - rewrite !sort_recs_perm_self. exact Hp.
  - rewrite sort_recs_perm_self. exact Hnd.
Qed.

Lemma map_set_incl : forall r m, incl (map_set r m) (r :: m).
Proof.
  intros r m. induction m as [|x m IH]; cbn [map_set]; [apply incl_refl|].
  destruct (r_id x =? r_id r); [apply incl_cons; [left; reflexivity|apply incl_tl, incl_tl, incl_refl]|].
  intros y [<-|Hy]; [right; left; reflexivity|]. destruct (IH y Hy); [left|right; right]; assumption.
Qed.

Lemma map_set_nodup : forall r m, NoDup (map r_id m) -> NoDup (map r_id (map_set r m)).
Proof.
  intros r m. induction m as [|x m IH]; cbn [map_set map]; intros Hnd.
  - repeat constructor. intros [].
  - inversion Hnd as [|? ? Hx Hm]; subst. destruct (r_id x =? r_id r) eqn:E; cbn [map].
    + apply N.eqb_eq in E. rewrite <- E. constructor; assumption.
    + constructor; [|auto]. intros Hin. apply (incl_map r_id (map_set_incl r m)) in Hin.
      destruct Hin as [Hi|Hi]; [lia|contradiction].
Qed.

Lemma latest_by_id_nodup : forall l, NoDup (map r_id (latest_by_id l)).
Proof.
  intros l. apply (fold_left_inv (fun m => NoDup (map r_id m))); [|constructor].
  intros m r _. apply map_set_nodup.
Qed.

Lemma latest_by_id_incl : forall l, incl (latest_by_id l) l.
Proof.
  intros l. apply (fold_left_inv (fun m => incl m l)); [|intros x []].
  intros m r Hr Hm x Hx. destruct (map_set_incl r m x Hx) as [<-|Hx']; auto.
Qed.

Lemma accepted_filter_incl : forall ao l, incl (accepted_filter ao l) l.
Proof. intros [|] l; [apply incl_filter|apply incl_refl]. Qed.

Lemma accepted_filter_nodup : forall ao l,
  NoDup (map r_id l) -> NoDup (map r_id (accepted_filter ao l)).
Proof. intros [|] l H; [apply NoDup_map_filter|]; exact H. Qed.

Lemma accepted_filter_perm : forall ao l l',
  Permutation l l' -> Permutation (accepted_filter ao l) (accepted_filter ao l').
Proof. intros [|] l l' H; [apply Permutation_filter|]; exact H. Qed.

(* what nodeSequenceWithoutState does after the map is filled, the map being an
   association list with distinct node ids: append the entries (all, or the
   accepted ones) in iteration order, sort by (timestamp, id), number *)
Definition sequence_of_map (ao : bool) (m : list nrec) : list cnode :=
  assign_index 0 (sort_recs (accepted_filter ao m)).

Lemma nsws_is_sequence_of_map : forall th ao all,
  node_sequence_without_state th ao all = sequence_of_map ao (latest_by_id (take_before th all)).
Proof. reflexivity. Qed.

Lemma sequence_of_map_perm : forall ao m m',
  Permutation m m' -> NoDup (map r_id m) -> sequence_of_map ao m = sequence_of_map ao m'.
Proof.
  intros ao m m' Hp Hnd. unfold sequence_of_map. f_equal.
  apply sort_recs_perm; [apply accepted_filter_perm; exact Hp|apply accepted_filter_nodup; exact Hnd].
Qed.

(* [iter th ao m] is the order in which the Go runtime happens to iterate the
   map m during the call with arguments (th, ao): any permutation of m *)
Definition iteration := N -> bool -> list nrec -> list nrec.
Definition is_iteration (iter : iteration) : Prop := forall th ao m, Permutation m (iter th ao m).

Definition nsws_with (iter : iteration) (th : N) (ao : bool) (all : list nrec) : list cnode :=
  sequence_of_map ao (iter th ao (latest_by_id (take_before th all))).

Definition build_sequences_with (iter : iteration) (ao : bool) (all : list nrec) : list (N * list cnode) :=
  map (fun n => (r_ts n, nsws_with iter (u64 (r_ts n + 1)) ao all)) all.

Definition load_node_with (iter : iteration) (recs : list nrec) (genesis : list N) (epoch : N) (mainnet : bool) : mnode :=
  let all := sort_recs recs in
  mknode all (build_sequences_with iter false all) (build_sequences_with iter true all) genesis epoch mainnet.

Definition read_all_latest_with (iter : iteration) (threshold : N) (store : list nrec) : list nrec :=
  sort_recs (iter threshold false (latest_by_id (read_all_with_state threshold store))).

Lemma nsws_with_eq : forall iter th ao all, is_iteration iter ->
  nsws_with iter th ao all = node_sequence_without_state th ao all.
Proof.
  intros iter th ao all Hi. unfold nsws_with. rewrite nsws_is_sequence_of_map. symmetry.
  apply sequence_of_map_perm; [apply Hi|apply latest_by_id_nodup].
Qed.

Lemma load_node_with_eq : forall iter recs genesis epoch mainnet, is_iteration iter ->
  load_node_with iter recs genesis epoch mainnet = load_node recs genesis epoch mainnet.
Proof.
  intros iter recs genesis epoch mainnet Hi.
  unfold load_node_with, load_node, build_sequences_with, build_sequences.
  f_equal; apply map_ext; intros n; rewrite nsws_with_eq by exact Hi; reflexivity.
Qed.

Lemma read_all_latest_with_eq : forall iter th store, is_iteration iter ->
  read_all_latest_with iter th store = read_all_latest th store.
Proof.
  intros iter th store Hi. unfold read_all_latest_with, read_all_latest. symmetry.
  apply sort_recs_perm; [apply Hi|apply latest_by_id_nodup].
Qed.
