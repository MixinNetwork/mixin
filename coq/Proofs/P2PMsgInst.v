(* The parser of Model/P2PMsg.v with its opaque payload decoders instantiated by those of
   Model/TxCodec.v (common.UnmarshalVersionedTransaction) and Model/SnapCodec.v
   (common.UnmarshalVersionedSnapshot).  The curve point check stays a parameter. *)
From Coq Require Import List ZArith NArith Bool Lia ZifyN ZifyNat ZifyBool.
Require Import Mixin.Base.Res Mixin.Gen.Consts Mixin.Model.P2PMsg Mixin.Proofs.P2PMsg Mixin.Proofs.Res.
Require Mixin.Model.TxCodec Mixin.Model.SnapCodec Mixin.Proofs.TxCodec Mixin.Proofs.TxCodecTop Mixin.Proofs.SnapCodec.
Import ListNotations.
Open Scope Z_scope.

Module TxM := Mixin.Model.TxCodec.
Module SnM := Mixin.Model.SnapCodec.
Module TxP := Mixin.Proofs.TxCodec.
Module TxT := Mixin.Proofs.TxCodecTop.
Module SnP := Mixin.Proofs.SnapCodec.

(* what parseNetworkMessage keeps of common.UnmarshalVersionedSnapshot: snap.Snapshot *)
Definition snap_body_c (b : bytes) : option SnM.snapshot :=
  match SnM.unmarshal_snapshot b with
  | Ok (s, _) => Some s
  | _ => None
  end.
Definition snap_signed_c (s : SnM.snapshot) : bool := SnM.is_some (SnM.s_sig s).

Definition tx_body_c (b : bytes) : option TxM.tx :=
  match TxM.unmarshal b with
  | Ok t => Some t
  | _ => None
  end.

Definition cmsg := msg SnM.snapshot TxM.tx.

Definition parse_msg_concrete (check_key : bytes -> bool) (v : N) (b : bytes) : res (N * cmsg) :=
  parse_msg SnM.snapshot TxM.tx snap_body_c snap_signed_c tx_body_c check_key v b.

(* The version-header check and the size cap that Model/P2PMsg.v writes in front
   of the opaque decoders are the ones the concrete decoders start with: the
   composition is exactly UnmarshalVersionedSnapshot / UnmarshalVersionedTransaction. *)
Lemma snap_dec_concrete : forall b, snap_dec SnM.snapshot snap_body_c b = snap_body_c b.
Proof.
  intros b. unfold snap_dec, snap_body_c, SnM.unmarshal_snapshot, SnM.check_snap_version.
  destruct b as [|x0 [|x1 [|x2 [|x3 r]]]]; try reflexivity.
  replace (len (x0 :: x1 :: x2 :: x3 :: r) <? 4) with false
    by (rewrite !len_cons; pose proof (len_nonneg r); lia).
  cbn [firstn SnM.take]. change Consts.P2P_SnapshotEncodingHeader with [119; 119; 0; 2]%N.
  change (SnM.magic ++ [0%N; SnM.snap_version]) with [119; 119; 0; 2]%N.
  cbn [bytes_eqb SnM.list_eqb].
  destruct (x0 =? 119)%N; [|reflexivity]. destruct (x1 =? 119)%N; [|reflexivity].
  destruct (x2 =? 0)%N; [|reflexivity]. destruct (x3 =? 2)%N; reflexivity.
Qed.

Lemma tx_dec_concrete : forall b, tx_dec TxM.tx tx_body_c b = tx_body_c b.
Proof.
  intros b. unfold tx_dec, tx_body_c, TxM.unmarshal, TxM.blen. change tx_max_size with 4194304.
  change TxM.tx_max_size with 4194304%N. unfold len.
  destruct (4194304 <? Z.of_nat (length b)) eqn:E.
  - replace (4194304 <? N.of_nat (length b))%N with true by lia. reflexivity.
  - reflexivity.
Qed.

Definition is_bytes (b : bytes) : Prop := Forall (fun x => (x < 256)%N) b.

Lemma is_bytes_slice : forall b lo hi r, is_bytes b -> slice b lo hi = Ok r -> is_bytes r.
Proof.
  intros b lo hi r Hb H. unfold slice in H. destruct (_ && _); [|discriminate].
  apply Ok_inj in H as <-. unfold is_bytes in *.
  rewrite <- (firstn_skipn (Z.to_nat lo) b) in Hb. apply Forall_app in Hb as [_ Hb].
  rewrite <- (firstn_skipn (Z.to_nat (hi - lo))) in Hb. apply Forall_app in Hb. apply Hb.
Qed.

(* The parser does not panic, and neither does any call of the two payload
   decoders on any slice of the message: turning their outcome into an option
   above hides no panic. *)
Theorem total_concrete : forall check_key v b, len b < 4294967296 -> is_bytes b ->
  parse_msg_concrete check_key v b <> Panic /\
  (forall lo hi r, slice b lo hi = Ok r ->
     TxM.unmarshal r <> Panic /\ SnM.unmarshal_snapshot r <> Panic).
Proof.
  intros check_key v b Hl Hb. split.
  - apply parse_msg_no_panic. exact Hl.
  - intros lo hi r Hs. split; [|apply SnP.unmarshal_no_panic].
    apply TxT.unmarshal_no_panic. eapply is_bytes_slice; eassumption.
Qed.

Lemma tx_dec_ser : forall t, TxT.wf_tx t -> tx_dec TxM.tx tx_body_c (TxM.ser_tx t) = Some t.
Proof.
  intros t H. rewrite tx_dec_concrete. unfold tx_body_c.
  destruct (TxT.unmarshal_roundtrip t H) as (_ & ->). reflexivity.
Qed.

Theorem roundtrip_transaction_concrete : forall check_key v t, TxT.wf_tx t ->
  parse_msg_concrete check_key v (build_transaction (TxM.ser_tx t)) = Ok (v, MTransaction t).
Proof. intros. apply roundtrip_transaction. now apply tx_dec_ser. Qed.

Theorem roundtrip_transactions_concrete : forall check_key v ts typ m,
  typ = ty Consts.P2P_TypeTransactionBundle \/ typ = ty Consts.P2P_TypeFinalizedTransactionBundle ->
  Forall TxT.wf_tx ts ->
  build_transactions (map TxM.ser_tx ts) typ = Ok m ->
  parse_msg_concrete check_key v m = Ok (v, MBundle (Z.of_N typ) ts).
Proof.
  intros check_key v ts typ m Ht Hall Hb. eapply roundtrip_transactions; [exact Ht| |exact Hb].
  clear Hb. induction Hall; cbn [map]; constructor; [apply tx_dec_ser|]; assumption.
Qed.

Theorem roundtrip_finalization_concrete : forall check_key v s topo, SnP.wf s -> (topo < SnP.u64_bound)%N ->
  exists e, SnM.versioned_marshal s topo = Ok e /\
    parse_msg_concrete check_key v (build_finalization e) = Ok (v, MFinalization (SnP.canon s)).
Proof.
  intros check_key v s topo Hw Ht. destruct (SnP.roundtrip s topo Hw Ht) as (e & _ & Hm & Hu & _).
  exists (e ++ SnM.u64 topo). split; [exact Hm|]. apply roundtrip_finalization.
  rewrite snap_dec_concrete. unfold snap_body_c. rewrite Hu. reflexivity.
Qed.
