(* Lemmas about Model/Membership.v used by Props/C11.v and Proofs/Finality.v;
   the facts about the sort itself are in MembershipPerm.v. *)
From Coq Require Import List ZArith NArith Bool Lia ZifyN ZifyNat ZifyBool Permutation.
Require Import Mixin.Base.Res Mixin.Gen.Consts Mixin.Model.Membership
               Mixin.Proofs.Lists Mixin.Proofs.MembershipPerm.
Import ListNotations.
Open Scope N_scope.

(* ordered, not strictly, by timestamp alone: what [take_before] needs, and
   weaker than the (timestamp, id) order [ksorted] that the sort delivers *)
Fixpoint ts_sorted (l : list nrec) : Prop :=
  match l with
  | [] => True
  | x :: l' => Forall (fun y => r_ts x <= r_ts y) l' /\ ts_sorted l'
  end.

Lemma ksorted_ts_sorted : forall l, ksorted l -> ts_sorted l.
Proof.
  induction l as [|x l IH]; cbn [ksorted ts_sorted]; [auto|]. intros [Hx Hl]. split; [|auto].
  eapply Forall_impl; [|exact Hx]. cbn. intros y Hy. unfold rec_lt in Hy. lia.
Qed.

Lemma sort_recs_sorted : forall l, ts_sorted (sort_recs l).
Proof. intros l. apply ksorted_ts_sorted, sort_recs_ksorted. Qed.

Lemma ts_sorted_app_le : forall a y b, ts_sorted (a ++ y :: b) -> Forall (fun x => r_ts x <= r_ts y) a.
Proof.
  induction a as [|x a IH]; cbn [app ts_sorted]; intros y b [Hx Hs]; constructor; [|eauto].
  apply Forall_elt in Hx. exact Hx.
Qed.

Lemma take_before_all_later : forall th l,
  Forall (fun r => th <= r_ts r) l -> take_before th l = [].
Proof.
  intros th l H. destruct H as [|x l Hx _]; cbn [take_before]; [reflexivity|].
  destruct (th <=? r_ts x) eqn:E; [reflexivity|lia].
Qed.

Lemma take_before_app_earlier : forall th a b,
  Forall (fun r => r_ts r < th) a -> take_before th (a ++ b) = a ++ take_before th b.
Proof.
  intros th a b H. induction H as [|x a Hx _ IH]; cbn [app take_before]; [reflexivity|].
  destruct (th <=? r_ts x) eqn:E; [lia|]. rewrite IH. reflexivity.
Qed.

Lemma take_before_last : forall t p n suf, ts_sorted (p ++ n :: suf) -> r_ts n < t ->
  Forall (fun r => t <= r_ts r) suf -> take_before t (p ++ n :: suf) = p ++ [n].
Proof.
  intros t p n suf Hs Hn Hsuf. rewrite take_before_app_earlier.
  - cbn [take_before]. destruct (t <=? r_ts n) eqn:E; [lia|].
    rewrite take_before_all_later by exact Hsuf. reflexivity.
  - eapply Forall_impl; [|exact (ts_sorted_app_le _ _ _ Hs)]. cbn. lia.
Qed.

Lemma take_before_insert_later : forall th r l,
  th <= r_ts r -> take_before th (insert_rec r l) = take_before th l.
Proof.
  intros th r l Hr. induction l as [|x l IH]; cbn [insert_rec].
  - cbn [take_before]. destruct (th <=? r_ts r) eqn:E; [reflexivity|lia].
  - destruct (rec_lt r x) eqn:E; cbn [take_before].
    + unfold rec_lt in E. destruct (th <=? r_ts r) eqn:E1; [|lia].
      destruct (th <=? r_ts x) eqn:E2; [reflexivity|lia].
    + rewrite IH. reflexivity.
Qed.

Lemma take_before_sort_app_later : forall th recs later,
  Forall (fun r => th <= r_ts r) later ->
  take_before th (sort_recs (recs ++ later)) = take_before th (sort_recs recs).
Proof.
  intros th recs later Hl. unfold sort_recs. rewrite fold_left_app. fold (sort_recs recs).
  apply (fold_left_inv (fun a => take_before th a = take_before th (sort_recs recs))); [|reflexivity].
  intros a r Hr <-. apply take_before_insert_later. exact (proj1 (Forall_forall _ _) Hl r Hr).
Qed.

Lemma take_before_filter : forall th l, ts_sorted l ->
  take_before th l = filter (fun r => r_ts r <? th) l.
Proof.
  intros th l. induction l as [|x l IH]; [reflexivity|]. intros [Hx Hl]. cbn [take_before].
  destruct (th <=? r_ts x) eqn:E.
  - symmetry. apply filter_none. constructor; [lia|].
    eapply Forall_impl; [|exact Hx]. cbn. lia.
  - cbn [filter]. destruct (r_ts x <? th) eqn:E2; [|lia]. rewrite (IH Hl). reflexivity.
Qed.

(* the direct sequence (nsws: node_sequence_without_state) looks at the records
   before the threshold only *)
Lemma nsws_ext : forall t1 t2 ao all1 all2,
  take_before t1 all1 = take_before t2 all2 ->
  node_sequence_without_state t1 ao all1 = node_sequence_without_state t2 ao all2.
Proof. intros t1 t2 ao all1 all2 H. unfold node_sequence_without_state. rewrite H. reflexivity. Qed.

(* The state-sequence cache equals the direct computation.  Induction from the
   right over [pre], the records whose cached sequences are still to be scanned
   (the scan goes from the latest down), [suf] being those already known to lie
   at or after [th].  The hit is the last record n with r_ts n < th; its
   sequence was built for u64 (r_ts n + 1), and [take_before] at that threshold
   and at [th] both give p ++ [n] ([take_before_last]).  th < two64 is what
   makes u64 (r_ts n + 1) = r_ts n + 1. *)
Lemma lookup_seq_direct_gen : forall th ao all, th < two64 -> ts_sorted all ->
  forall pre suf, all = pre ++ suf -> Forall (fun r => th <= r_ts r) suf ->
  lookup_seq th (map (fun n => (r_ts n, node_sequence_without_state (u64 (r_ts n + 1)) ao all)) (rev pre))
  = node_sequence_without_state th ao all.
Proof.
  intros th ao all Hth Hs pre. induction pre as [|n p IH] using rev_ind; intros suf Hall Hsuf.
  - cbn in *. subst all. unfold node_sequence_without_state.
    rewrite take_before_all_later by exact Hsuf. destruct ao; reflexivity.
  - rewrite rev_app_distr. cbn [rev app map lookup_seq].
    rewrite <- app_assoc in Hall. cbn [app] in Hall.
    destruct (r_ts n <? th) eqn:E; [|apply (IH (n :: suf) Hall); constructor; [lia|exact Hsuf]].
    apply nsws_ext. unfold u64. rewrite N.mod_small by lia. subst all.
    rewrite !take_before_last; auto; try lia. eapply Forall_impl; [|exact Hsuf]. cbn. lia.
Qed.

Lemma lookup_seq_direct : forall th ao all, th < two64 -> ts_sorted all ->
  lookup_seq th (rev (build_sequences ao all)) = node_sequence_without_state th ao all.
Proof.
  intros th ao all Hth Hs. unfold build_sequences. rewrite <- map_rev.
  apply (lookup_seq_direct_gen th ao all Hth Hs all []); [rewrite app_nil_r; reflexivity|constructor].
Qed.

Lemma nodes_list_load_seqs : forall recs genesis epoch mainnet th ao,
  nodes_list (load_node recs genesis epoch mainnet) th ao
  = lookup_seq th (rev (build_sequences ao (sort_recs recs))).
Proof. intros recs genesis epoch mainnet th ao. destruct ao; reflexivity. Qed.

Lemma nodes_list_load : forall recs genesis epoch mainnet th ao, th < two64 ->
  nodes_list (load_node recs genesis epoch mainnet) th ao
  = node_sequence_without_state th ao (sort_recs recs).
Proof.
  intros recs genesis epoch mainnet th ao Hth. rewrite nodes_list_load_seqs.
  apply lookup_seq_direct; [exact Hth|apply sort_recs_sorted].
Qed.

Lemma take_before_incl : forall th l, incl (take_before th l) l.
Proof.
  intros th l. induction l as [|x l IH]; cbn [take_before]; [apply incl_refl|].
  destruct (th <=? r_ts x); [intros y []|apply incl_cons; [left; reflexivity|apply incl_tl, IH]].
Qed.

Lemma map_c_rec_assign : forall l i, map c_rec (assign_index i l) = l.
Proof.
  induction l as [|r l IH]; intros i; cbn [assign_index map c_rec]; [|rewrite IH]; reflexivity.
Qed.

Lemma nsws_recs : forall th ao all, let l := map c_rec (node_sequence_without_state th ao all) in
  incl l all /\ NoDup (map r_id l).
Proof.
  intros th ao all. unfold node_sequence_without_state. rewrite map_c_rec_assign. cbv zeta. split.
  - intros x Hx. apply (Permutation_in _ (sort_recs_perm_self _)) in Hx.
    apply (take_before_incl th all), latest_by_id_incl, (accepted_filter_incl ao), Hx.
  - rewrite sort_recs_perm_self. apply accepted_filter_nodup, latest_by_id_nodup.
Qed.

Lemma lookup_seq_in : forall th seqs, lookup_seq th seqs = [] \/ In (lookup_seq th seqs) (map snd seqs).
Proof.
  intros th seqs. induction seqs as [|[ts l] seqs IH]; cbn [lookup_seq map snd]; [auto|].
  destruct (ts <? th); [right; left; reflexivity|]. destruct IH; [left|right; right]; assumption.
Qed.

Lemma nodes_list_recs : forall recs genesis epoch mainnet th ao,
  let l := map c_rec (nodes_list (load_node recs genesis epoch mainnet) th ao) in
  incl l recs /\ NoDup (map r_id l).
Proof.
  intros recs genesis epoch mainnet th ao. rewrite nodes_list_load_seqs. cbv zeta.
  destruct (lookup_seq_in th (rev (build_sequences ao (sort_recs recs)))) as [->|Hin].
  - split; [intros x []|constructor].
  - apply in_map_iff in Hin. destruct Hin as ([ts l] & <- & Hin). apply in_rev, in_map_iff in Hin.
    destruct Hin as (n & [= _ <-] & _). destruct (nsws_recs (u64 (r_ts n + 1)) ao (sort_recs recs)) as [Hi Hn].
    split; [|exact Hn]. intros x Hx. apply (Permutation_in _ (sort_recs_perm_self recs)), Hi, Hx.
Qed.

Lemma consensus_nodes_recs : forall recs genesis epoch mainnet ch round ts r,
  In r (consensus_nodes (load_node recs genesis epoch mainnet) ch round ts) ->
  In r recs \/ ch_info ch = Some r.
Proof.
  intros recs genesis epoch mainnet ch round ts r. unfold consensus_nodes. cbv zeta.
  assert (Hps : forall f, In r (map c_rec (filter f (nodes_list (load_node recs genesis epoch mainnet) ts false))) ->
                          In r recs).
  { intros f H. apply (proj1 (nodes_list_recs recs genesis epoch mainnet ts false)).
    apply in_map_iff in H. destruct H as (c & <- & Hc). apply in_map, (incl_filter _ _ _ Hc). }
  destruct (ch_info ch) as [info|]; [destruct (_ && _)|]; [|intros H; left; exact (Hps _ H)..].
  intros H. apply in_app_or in H. destruct H as [H|[<-|[]]]; [left; exact (Hps _ H)|right; reflexivity].
Qed.

Definition agree_upto (th : N) (a b : mnode) : Prop :=
  n_genesis a = n_genesis b /\ n_epoch a = n_epoch b /\ n_mainnet a = n_mainnet b /\
  forall t ao, t <= th -> nodes_list a t ao = nodes_list b t ao.

Lemma agree_le : forall th t a b, t <= th -> agree_upto th a b -> agree_upto t a b.
Proof.
  intros th t a b Hle (Hg & He & Hm & Hl). repeat split; auto.
  intros t' ao Ht'. apply Hl. lia.
Qed.

Lemma agree_check_remove : forall th a b id, agree_upto th a b ->
  check_remove_possibility a id th = check_remove_possibility b id th.
Proof.
  intros th a b id (_ & He & _ & Hl). unfold check_remove_possibility, pledging_node, accept_hour.
  rewrite He, (Hl th false (N.le_refl th)). reflexivity.
Qed.

Lemma one_day_24h : one_day = 24 * hour_ns.
Proof. vm_compute. reflexivity. Qed.
Lemma hour_ns_pos : 0 < hour_ns.
Proof. vm_compute. reflexivity. Qed.
Lemma accept_begin_lt_24 : accept_begin < 24.
Proof. vm_compute. reflexivity. Qed.

Lemma u64sub_le : forall a b, b <= a -> a < two64 -> u64sub a b = a - b.
Proof.
  intros a b Hb Ha. unfold u64sub.
  replace (a + two64 - b) with (a - b + 1 * two64) by lia.
  rewrite N.mod_add by discriminate. apply N.mod_small. lia.
Qed.

(* with hours of length [h]: if the hour of day of [s] is at least [a], the day
   of [s] began at least [a] hours before [s] *)
Lemma day_floor_le : forall h s a, 0 < h -> a <= (s / h) mod 24 ->
  s / (24 * h) * (24 * h) + a * h <= s.
Proof.
  intros h s a Hp Ha. assert (Hh : h <> 0) by (intros ->; discriminate Hp).
  rewrite (N.mul_comm 24 h) at 1. rewrite <- N.div_div by (assumption || discriminate).
  rewrite N.mul_assoc, <- N.mul_add_distr_r.
  (* (q / 24 * 24 + a) * h <= q * h <= s for q = s / h *)
  apply N.le_trans with (s / h * h); [|rewrite N.mul_comm; apply N.mul_div_le, Hh].
  apply N.mul_le_mono_r. rewrite (N.div_mod' (s / h) 24) at 2.
  rewrite (N.mul_comm 24). apply N.add_le_mono_l, Ha.
Qed.

Lemma window_start_le : forall epoch ts,
  epoch <= ts -> ts < two64 ->
  accept_begin <= (u64sub ts epoch / hour_ns) mod 24 ->
  window_start epoch ts <= ts.
Proof.
  intros epoch ts He Hts Hh. rewrite u64sub_le in Hh by assumption.
  apply (day_floor_le _ _ _ hour_ns_pos) in Hh.
  unfold window_start, u64. rewrite one_day_24h, <- N.add_assoc.
  (* keep the constants folded: lia only needs the offset as an atom *)
  set (d := _ * _ + _) in *. clearbody d.
  rewrite N.mod_small; lia.
Qed.

Lemma agree_removing : forall th a b, th < two64 -> agree_upto th a b ->
  removing_at a th = removing_at b th.
Proof.
  intros th a b Hth H. pose proof H as (_ & He & _). unfold removing_at, accept_hour. cbv zeta. rewrite He.
  destruct (th <? n_epoch b) eqn:E1; [reflexivity|].
  destruct (_ && _) eqn:E2; [|reflexivity]. cbn [negb orb].
  apply agree_check_remove, (agree_le th); [|exact H].
  apply window_start_le; [lia|exact Hth|lia].
Qed.

Lemma threshold_count_genesis : forall a b t final rm l base, n_genesis a = n_genesis b ->
  threshold_count a t final rm l base = threshold_count b t final rm l base.
Proof.
  intros a b t final rm l base Hg. revert base.
  induction l as [|c l IH]; intros base; cbn [threshold_count]; [reflexivity|].
  replace (threshold_step a t final c) with (threshold_step b t final c)
    by (unfold threshold_step, is_genesis; rewrite Hg; reflexivity).
  destruct (is_removing rm c); [apply IH|]. destruct (threshold_step b t final c); [apply IH|reflexivity].
Qed.

Record views := mkviews {
  v_list : list cnode; v_accepted : list cnode;
  v_threshold_final : res N; v_threshold_open : res N;
  v_ids : list N; v_keys : list N;
  v_pledging : option cnode; v_removing : option cnode;
  v_elect : res N; v_get : option cnode }.

Definition views_at (nd : mnode) (ch : mchain) (round op id t : N) : views :=
  mkviews (nodes_list nd t false) (nodes_list nd t true)
          (consensus_threshold nd t true) (consensus_threshold nd t false)
          (consensus_ids nd ch round t) (consensus_keys nd ch round t)
          (pledging_node nd t) (removing_at nd t) (elect nd op t)
          (get_accepted_or_pledging nd id t).

(* every view reads the node through its genesis set, epoch, network flag and
   the lists at th and at the start of th's removal window only; the latter is
   why [agree_upto] asks for the lists at every t <= th *)
Lemma agree_views : forall th a b ch round op id, th < two64 -> agree_upto th a b ->
  views_at a ch round op id th = views_at b ch round op id th.
Proof.
  intros th a b ch round op id Hth H. pose proof (agree_removing th a b Hth H) as Hr.
  destruct H as (Hg & He & Hm & Hl).
  unfold views_at, consensus_ids, consensus_keys, consensus_nodes, consensus_threshold, predicted_removal,
    use_predictive, pledging_node, get_accepted_or_pledging, elect, consensus_ready, is_genesis.
  rewrite !(threshold_count_genesis a b) by exact Hg.
  rewrite Hr, Hg, He, Hm, !Hl by apply N.le_refl. reflexivity.
Qed.

Lemma load_agree : forall recs later genesis epoch mainnet th, th < two64 ->
  Forall (fun r => th <= r_ts r) later ->
  agree_upto th (load_node recs genesis epoch mainnet) (load_node (recs ++ later) genesis epoch mainnet).
Proof.
  intros recs later genesis epoch mainnet th Hth Hl. repeat split.
  intros t ao Ht. rewrite !nodes_list_load by lia. apply nsws_ext. symmetry.
  apply take_before_sort_app_later. eapply Forall_impl; [|exact Hl]. cbn. lia.
Qed.

Lemma read_all_append_later : forall th store later,
  Forall (fun r => th < r_ts r) later ->
  read_all_with_state th (store ++ later) = read_all_with_state th store.
Proof.
  intros th store later H. unfold read_all_with_state.
  rewrite filter_app, (filter_none _ later), app_nil_r; [reflexivity|].
  eapply Forall_impl; [|exact H]. cbn. lia.
Qed.

Section CustodianProofs.
  Variable P : Type.
  Variable parse : N -> bool -> res P.

  Definition cache_ok (c : ccache P) : Prop :=
    forall k p, cache_load P k c = Some p -> parse (fst k) (snd k) = Ok p.

  Lemma cache_ok_nil : cache_ok [].
  Proof. intros k p H. discriminate H. Qed.

  Lemma cache_ok_cons : forall tx g p c, parse tx g = Ok p -> cache_ok c -> cache_ok (((tx, g), p) :: c).
  Proof.
    intros tx g p c Hp Hc [tx' g'] p' H. cbn [cache_load fst snd] in *.
    destruct ((tx =? tx') && Bool.eqb g g') eqn:E; [|exact (Hc _ _ H)].
    apply andb_prop in E. destruct E as [E1 E2]. apply N.eqb_eq in E1. apply eqb_prop in E2.
    congruence.
  Qed.

  Lemma cust_scan_cached_eq : forall ts recs g found c, cache_ok c ->
    fst (cust_scan_cached P parse ts recs g found c) = cust_scan P parse ts recs g found /\
    cache_ok (snd (cust_scan_cached P parse ts recs g found c)).
  Proof.
    intros ts recs. induction recs as [|[rts tx] rest IH]; intros g found c Hc;
      cbn [cust_scan_cached cust_scan]; [auto|].
    destruct (ts <? rts); [auto|].
    destruct (cache_load P (tx, g) c) as [p|] eqn:El.
    - rewrite (Hc (tx, g) p El : parse tx g = Ok p). apply IH. exact Hc.
    - destruct (parse tx g) as [p| |] eqn:Ep; auto. apply IH, cache_ok_cons; assumption.
  Qed.

  Lemma run_queries_eq : forall qs c, cache_ok c ->
    run_queries P parse qs c = map (fun q => read_custodian_direct P parse (fst q) (snd q)) qs.
  Proof.
    induction qs as [|[recs ts] qs IH]; intros c Hc; cbn [run_queries map fst snd]; [reflexivity|].
    unfold read_custodian, read_custodian_direct.
    destruct (cust_scan_cached_eq ts recs true None c Hc) as [H1 H2].
    destruct (cust_scan_cached P parse ts recs true None c) as [r c']. cbn [fst snd] in *.
    rewrite H1. f_equal. apply IH. exact H2.
  Qed.

  Lemma cust_scan_put_later : forall ts ts' tx recs g found, ts < ts' ->
    cust_scan P parse ts (cust_put ts' tx recs) g found = cust_scan P parse ts recs g found.
  Proof.
    intros ts ts' tx recs g found Hlt. assert (E : (ts <? ts') = true) by lia. revert g found.
    induction recs as [|[t x] rest IH]; intros g found; cbn [cust_put cust_scan]; [rewrite E; reflexivity|].
    (* the new record lands at or before t, after ts: the scan stops there in both histories *)
    destruct (ts' <? t) eqn:E1; [|destruct (ts' =? t) eqn:E2]; cbn [cust_scan]; rewrite ?E.
    1,2: destruct (ts <? t) eqn:E3; [reflexivity|lia].
    destruct (ts <? t); [reflexivity|]. destruct (parse x g); auto.
  Qed.
End CustodianProofs.
