(* Lemmas about Model/Finality.v: masks and the memo key are injective, the memo
   answers like the memoryless verification, an accepted snapshot carries a
   certificate. *)
From Coq Require Import List ZArith NArith Bool Lia ZifyN ZifyNat ZifyBool.
Require Import Mixin.Base.Res Mixin.Gen.Consts Mixin.Model.Membership Mixin.Model.Finality
               Mixin.Proofs.Res Mixin.Proofs.Membership.
Import ListNotations.
Open Scope N_scope.

Lemma select_map : forall {A B} (f : A -> B) l idx sel,
  select l idx = Some sel -> select (map f l) idx = Some (map f sel).
Proof.
  intros A B f l idx. induction idx as [|i r IH]; intros sel; cbn [select]; [intros [= <-]; reflexivity|].
  destruct (nth_error l i) as [x|] eqn:E; [|discriminate]. destruct (select l r) as [xs|]; [|discriminate].
  intros [= <-]. rewrite (map_nth_error f _ _ E), (IH xs eq_refl). reflexivity.
Qed.

Lemma select_Forall2 : forall {A} (l : list A) idx sel,
  select l idx = Some sel -> Forall2 (fun i x => nth_error l i = Some x) idx sel.
Proof.
  intros A l idx. induction idx as [|i r IH]; intros sel; cbn [select]; [intros [= <-]; constructor|].
  destruct (nth_error l i) eqn:E; [|discriminate]. destruct (select l r); [|discriminate].
  intros [= <-]. constructor; auto.
Qed.

Lemma select_length : forall {A} (l : list A) idx sel,
  select l idx = Some sel -> length sel = length idx.
Proof. intros A l idx sel H. apply select_Forall2 in H. induction H; cbn [length]; auto. Qed.

Lemma select_bound : forall {A} (l : list A) idx sel,
  select l idx = Some sel -> Forall (fun i => (i < length l)%nat) idx.
Proof.
  intros A l idx sel H. apply select_Forall2 in H.
  induction H as [|i x r xs E _ IH]; constructor; [apply nth_error_Some; congruence|exact IH].
Qed.

Lemma select_inj_idx : forall {A} (l : list A) idx1 idx2 sel, NoDup l ->
  select l idx1 = Some sel -> select l idx2 = Some sel -> idx1 = idx2.
Proof.
  intros A l idx1 idx2 sel Hnd H1 H2. apply select_Forall2 in H1, H2. revert idx2 H2.
  induction H1 as [|i x r xs E _ IH]; intros idx2 H2; inversion H2 as [|j ? r2 ? E2 H2']; subst; [reflexivity|].
  f_equal; [|apply IH; exact H2']. apply (proj1 (NoDup_nth_error l) Hnd); [apply nth_error_Some|]; congruence.
Qed.

(* never unfold mask_keys by conversion: comparing two stuck filters over the 64
   positions is exponential for the kernel; reason through membership instead *)
Lemma mask_keys_in : forall m i, In i (mask_keys m) <-> (i < 64)%nat /\ N.testbit m (N.of_nat i) = true.
Proof. intros m i. unfold mask_keys, bit_positions, mask_bit. rewrite filter_In, in_seq. lia. Qed.

Lemma testbit_high : forall k m n, m < 2 ^ k -> k <= n -> N.testbit m n = false.
Proof.
  intros k m n Hm Hn. destruct (N.eq_dec m 0) as [->|Hz]; [apply N.bits_0|].
  apply N.bits_above_log2. apply N.lt_le_trans with k; [|exact Hn].
  apply N.log2_lt_pow2; [lia|exact Hm].
Qed.

Lemma mask_keys_inj : forall m1 m2, m1 < two64 -> m2 < two64 ->
  mask_keys m1 = mask_keys m2 -> m1 = m2.
Proof.
  intros m1 m2 H1 H2 H. apply N.bits_inj. intros n.
  destruct (N.lt_ge_cases n 64) as [Hlt|Hge]; [|rewrite !(testbit_high 64) by assumption; reflexivity].
  assert (T : forall m, N.testbit m n = true <-> In (N.to_nat n) (mask_keys m))
    by (intros m; rewrite mask_keys_in, N2Nat.id; split; [split; [lia|assumption]|tauto]).
  apply eq_true_iff_eq. rewrite !T, H. reflexivity.
Qed.

Lemma select_mask_inj : forall {A} (keys : list A) m1 m2 sel,
  NoDup keys -> m1 < two64 -> m2 < two64 ->
  select keys (mask_keys m1) = Some sel -> select keys (mask_keys m2) = Some sel -> m1 = m2.
Proof.
  intros A keys m1 m2 sel Hnd H1 H2 S1 S2. apply mask_keys_inj; [exact H1|exact H2|].
  exact (select_inj_idx keys _ _ sel Hnd S1 S2).
Qed.

Lemma mask_keys_zero : mask_keys 0 = [].
Proof. vm_compute. reflexivity. Qed.

Lemma effective_ts_ordinary : forall s, s_hash s <> hack_hash -> effective_ts s = s_ts s.
Proof.
  intros s H. unfold effective_ts. destruct (N.eqb_spec (s_hash s) hack_hash) as [E|_]; [contradiction|reflexivity].
Qed.

(* the range of a Go int: the memo key stores uint64(threshold), which
   determines the threshold only inside this range *)
Definition int_range (t : Z) : Prop := (- 2 ^ 63 <= t < 2 ^ 63)%Z.

Lemma key_eqb_eq : forall a b, key_eqb a b = true <-> a = b.
Proof.
  induction a as [|x a IH]; destruct b as [|y b]; cbn [key_eqb];
    try (split; intros H; (reflexivity || discriminate H)).
  rewrite andb_true_iff, N.eqb_eq, IH. split; [intros [-> ->]; reflexivity|intros [= -> ->]; auto].
Qed.

Lemma memo_key_inj : forall h1 s1 p1 t1 m1 h2 s2 p2 t2 m2,
  int_range t1 -> int_range t2 ->
  memo_key h1 s1 p1 t1 m1 = memo_key h2 s2 p2 t2 m2 ->
  h1 = h2 /\ s1 = s2 /\ p1 = p2 /\ t1 = t2 /\ m1 = m2.
Proof.
  intros h1 s1 p1 t1 m1 h2 s2 p2 t2 m2 R1 R2 H. unfold memo_key in H.
  injection H as Hh Hs H.
  change (p1 ++ [?a; m1] = p2 ++ [?b; m2]) with (p1 ++ [a] ++ [m1] = p2 ++ [b] ++ [m2]) in H.
  rewrite !app_assoc in H.
  apply app_inj_tail in H. destruct H as [H Hm]. apply app_inj_tail in H. destruct H as [Hp Ht].
  (* a Go int is determined by its uint64 encoding *)
  repeat split; auto. unfold int_range in *. lia.
Qed.

Lemma threshold_step_le : forall nd ts final c d, threshold_step nd ts final c = Some d -> d <= 1.
Proof.
  intros nd ts final c d E. unfold threshold_step in E.
  destruct (3 * minute_ns <? ref_window); [discriminate|].
  destruct (c_state c); [destruct (accept_period_min <? hour_ns); [discriminate|]|..];
    injection E as <-; try lia; destruct (_ : bool); lia.
Qed.

Lemma threshold_count_le : forall nd ts final rm l base b,
  threshold_count nd ts final rm l base = Some b -> b <= base + N.of_nat (length l).
Proof.
  intros nd ts final rm l. induction l as [|c l IH]; intros base b H; cbn [threshold_count length] in *.
  - injection H as <-. lia.
  - destruct (is_removing rm c); [apply IH in H; lia|].
    destruct (threshold_step nd ts final c) as [d|] eqn:E; [|discriminate].
    apply IH in H. apply threshold_step_le in E. lia.
Qed.

(* 2^62 leaves both results of [consensus_threshold] inside [int_range]:
   base * 2 / 3 + 1 with base at most the length of the list, and the sentinel 1000 *)
Definition small_node (nd : mnode) : Prop :=
  forall ts, N.of_nat (length (nodes_list nd ts false)) < 2 ^ 62.

Lemma threshold_in_range : forall nd ts base, small_node nd ->
  consensus_threshold nd ts true = Ok base -> int_range (Z.of_N base).
Proof.
  intros nd ts base Hs H. unfold consensus_threshold in H.
  destruct (threshold_count nd ts true (predicted_removal nd ts) (nodes_list nd ts false) 0) as [b|] eqn:E; [|discriminate].
  apply threshold_count_le in E. pose proof (Hs ts) as Hl.
  assert (Hi : invalid_threshold = 1000) by (vm_compute; reflexivity).
  unfold int_range. destruct (b <? min_nodes); injection H as <-; lia.
Qed.

Section FinalityProofs.
  Variable agg_verify : list N -> N -> N -> bool.
  Lemma full_verify_true : forall pubs thr h sg m, full_verify agg_verify pubs thr h sg m = true ->
    (0 < thr)%Z /\ (thr <= Z.of_nat (length (mask_keys m)))%Z /\ mask_keys m <> [] /\
    exists sel, select pubs (mask_keys m) = Some sel /\ agg_verify sel h sg = true.
  Proof.
    intros pubs thr h sg m F. unfold full_verify in F.
    destruct (thr <=? 0)%Z eqn:E1; [discriminate|].
    destruct (Z.of_nat (length (mask_keys m)) <? thr)%Z eqn:E2; [discriminate|].
    destruct (mask_keys m) as [|k ks]; [discriminate|].
    destruct (select pubs (k :: ks)) as [sel|]; [|discriminate].
    repeat split; try lia; try discriminate. exists sel. auto.
  Qed.

  Lemma cosi_fresh_true : forall h sg m cids pubs thr signers,
    cosi_fresh agg_verify h sg m cids pubs thr = Ok (signers, true) ->
    full_verify agg_verify pubs thr h sg m = true /\ select cids (mask_keys m) = Some signers.
  Proof.
    intros h sg m cids pubs thr signers H. unfold cosi_fresh in H.
    destruct (full_verify agg_verify pubs thr h sg m); [|discriminate].
    destruct (select cids (mask_keys m)); [|discriminate]. injection H as <-. auto.
  Qed.

  Lemma cosi_fresh_false_nil : forall h sg m cids pubs thr signers,
    cosi_fresh agg_verify h sg m cids pubs thr = Ok (signers, false) -> signers = [].
  Proof.
    intros h sg m cids pubs thr signers H. unfold cosi_fresh in H.
    destruct (full_verify agg_verify pubs thr h sg m).
    - destruct (select cids (mask_keys m)); discriminate.
    - injection H as <-. reflexivity.
  Qed.

  (* verifyFinalization is three checks, one verification for the snapshot's
     timestamp and possibly one more for the legacy timestamp. *)
  Definition attempt {T : Type}
      (cv : N -> N -> N -> list N -> list N -> Z -> T -> res ((list N * bool) * T))
      (nd : mnode) (ch : mchain) (s : msnap) (ts : N) (t : T) : res ((list N * bool) * T) :=
    do base <- consensus_threshold nd ts true;
    cv (s_hash s) (s_sig s) (s_mask s) (consensus_ids nd ch (s_round s) ts)
       (consensus_keys nd ch (s_round s) ts) (Z.of_N base) t.

  Lemma verify_gen_eq : forall {T : Type} cv nd ch s (t : T),
    verify_gen cv nd ch s t =
    let ts := effective_ts s in
    if negb (s_version s =? snapshot_version) || (negb (s_has_sig s) || (s_mask s =? 0)) || (ts <? n_epoch nd)
    then Ok (([], false), t)
    else do r <- attempt cv nd ch s ts t;
         if snd (fst r) || use_predictive nd ts || negb (accept_hour nd ts)
            || Nat.leb (length (consensus_keys nd ch (s_round s) (legacy_ts nd ts)))
                       (length (consensus_keys nd ch (s_round s) ts))
         then Ok r else attempt cv nd ch s (legacy_ts nd ts) (snd r).
  Proof.
    intros T cv nd ch s t. unfold verify_gen, attempt. cbv zeta.
    destruct (negb (s_version s =? snapshot_version)); [reflexivity|].
    destruct (negb (s_has_sig s) || (s_mask s =? 0)); [reflexivity|].
    destruct (effective_ts s <? n_epoch nd); [reflexivity|]. cbn [orb].
    destruct (consensus_threshold nd (effective_ts s) true); [|reflexivity..]. cbn [bind].
    destruct (cv _ _ _ _ _ _ t) as [[[sg fin] t1]| |]; [|reflexivity..]. cbn [bind fst snd].
    destruct (fin || use_predictive nd _); [reflexivity|].
    destruct (negb (accept_hour nd _)); [reflexivity|]. cbn [orb].
    destruct (Nat.leb _ _); [reflexivity|]. destruct (consensus_threshold nd _ true); reflexivity.
  Qed.

  Definition certificate_ok (nd : mnode) (ch : mchain) (s : msnap) (ts : N) (signers : list N) : Prop :=
    let keys := consensus_keys nd ch (s_round s) ts in
    let ids := consensus_ids nd ch (s_round s) ts in
    let positions := mask_keys (s_mask s) in
    exists thr sel,
      consensus_threshold nd ts true = Ok thr /\ 0 < thr /\
      thr <= N.of_nat (length positions) /\
      Forall (fun i => (i < length keys)%nat) positions /\
      select keys positions = Some sel /\
      agg_verify sel (s_hash s) (s_sig s) = true /\
      select ids positions = Some signers.

  Lemma attempt_fresh_sound : forall nd ch s ts signers u,
    attempt (fresh_cv agg_verify) nd ch s ts tt = Ok ((signers, true), u) ->
    certificate_ok nd ch s ts signers.
  Proof.
    intros nd ch s ts signers u H. unfold attempt, fresh_cv in H.
    apply bind_ok in H. destruct H as (thr & Hthr & H).
    apply rmap_ok in H. destruct H as (r & H & [= <- _]).
    apply cosi_fresh_true in H. destruct H as [F H6].
    apply full_verify_true in F. destruct F as (H1 & H2 & _ & sel & H4 & H5).
    exists thr, sel. repeat split; auto; try lia. apply (select_bound _ _ _ H4).
  Qed.

  Lemma verify_fresh_sound : forall nd ch s signers,
    verify_fresh agg_verify nd ch s = Ok (signers, true) ->
    s_version s = snapshot_version /\ s_has_sig s = true /\ s_mask s <> 0 /\
    n_epoch nd <= effective_ts s /\
    (certificate_ok nd ch s (effective_ts s) signers \/
     (use_predictive nd (effective_ts s) = false /\ accept_hour nd (effective_ts s) = true /\
      (length (consensus_keys nd ch (s_round s) (effective_ts s))
       < length (consensus_keys nd ch (s_round s) (legacy_ts nd (effective_ts s))))%nat /\
      certificate_ok nd ch s (legacy_ts nd (effective_ts s)) signers)).
  Proof.
    intros nd ch s signers H. unfold verify_fresh in H. rewrite verify_gen_eq in H. cbv zeta in H.
    destruct (_ || _ || _) eqn:G in H; [discriminate H|].
    (* G = false unpacks, through ZifyBool and ZifyN, to the four entry checks *)
    repeat (split; [lia|]). clear G.
    apply rmap_ok in H. destruct H as ([r u] & H & E). cbn [fst] in E. subst r.
    apply bind_ok in H. destruct H as ([[sg fin] t1] & H1 & H). cbn [fst snd] in H.
    destruct fin; cbn [orb] in H.
    - injection H as -> _. left. exact (attempt_fresh_sound _ _ _ _ _ _ H1).
    - destruct (_ || _ || _) eqn:G in H; [discriminate H|].
      (* likewise the three conditions under which the legacy timestamp is tried *)
      right. repeat (split; [lia|]). destruct t1. exact (attempt_fresh_sound _ _ _ _ _ _ H).
  Qed.

  Lemma certificate_mask_unique : forall nd ch s s' ts signers signers' sel,
    NoDup (consensus_keys nd ch (s_round s) ts) -> s_round s' = s_round s ->
    s_mask s < two64 -> s_mask s' < two64 ->
    select (consensus_keys nd ch (s_round s) ts) (mask_keys (s_mask s)) = Some sel ->
    select (consensus_keys nd ch (s_round s) ts) (mask_keys (s_mask s')) = Some sel ->
    certificate_ok nd ch s ts signers -> certificate_ok nd ch s' ts signers' ->
    s_mask s' = s_mask s.
  Proof.
    intros nd ch s s' ts signers signers' sel Hnd _ H1 H2 S1 S2 _ _.
    exact (select_mask_inj _ _ _ sel Hnd H2 H1 S2 S1).
  Qed.

  (* node ids are a function of the signer keys (the id is the hash of the
     address derived from the spend key, for the node's network) *)
  Variable id_of : N -> N.

  (* every remembered entry equals the memoryless verification of every query
     that maps to its key *)
  Definition tbl_ok (t : memo) : Prop :=
    forall hash sig publics thr mask v, int_range thr ->
      memo_get (memo_key hash sig publics thr mask) t = Some v ->
      cosi_fresh agg_verify hash sig mask (map id_of publics) publics thr = Ok (decode_memo v mask).

  Lemma tbl_ok_nil : tbl_ok [].
  Proof. intros h s p thr m v _ H. discriminate H. Qed.

  Lemma tbl_ok_cons : forall hash sig publics thr mask v t, int_range thr -> tbl_ok t ->
    cosi_fresh agg_verify hash sig mask (map id_of publics) publics thr = Ok (decode_memo v mask) ->
    tbl_ok ((memo_key hash sig publics thr mask, v) :: t).
  Proof.
    intros hash sig publics thr mask v t Hr Ht Hv h' s' p' thr' m' v' Hr' G. cbn [memo_get] in G.
    destruct (key_eqb _ _) eqn:K; [|exact (Ht _ _ _ _ _ _ Hr' G)].
    apply key_eqb_eq, memo_key_inj in K; [|assumption..].
    destruct K as (-> & -> & -> & -> & ->). injection G as <-. exact Hv.
  Qed.

  (* the run [r1] through the memo gives the answer of the memoryless run [r2]
     and leaves a table that is still right *)
  Definition answers (r1 : res ((list N * bool) * memo)) (r2 : res ((list N * bool) * unit)) : Prop :=
    match r1 with
    | Ok (r, t') => r2 = Ok (r, tt) /\ tbl_ok t'
    | Err => r2 = Err
    | Panic => r2 = Panic
    end.

  Lemma cache_verify_correct : forall hash sig mask publics thr t,
    tbl_ok t -> int_range thr ->
    answers (cache_verify_cosi agg_verify hash sig mask (map id_of publics) publics thr t)
            (fresh_cv agg_verify hash sig mask (map id_of publics) publics thr tt).
  Proof.
    intros hash sig mask publics thr t Ht Hr. unfold cache_verify_cosi, fresh_cv.
    destruct (memo_get _ t) as [v|] eqn:G; [rewrite (Ht _ _ _ _ _ _ Hr G); split; [reflexivity|exact Ht]|].
    unfold cosi_fresh at 1.
    destruct (full_verify agg_verify publics thr hash sig mask) eqn:F.
    - destruct (select (map id_of publics) (mask_keys mask)) as [signers|] eqn:S; [|reflexivity].
      split; [reflexivity|]. apply tbl_ok_cons; auto. unfold cosi_fresh. rewrite F, S. cbn [decode_memo].
      rewrite (select_length _ _ _ S), Nat.eqb_refl.
      destruct (full_verify_true _ _ _ _ _ F) as (_ & _ & Hne & _).
      destruct (mask_keys mask); [contradiction|reflexivity].
    - split; [reflexivity|]. apply tbl_ok_cons; auto. unfold cosi_fresh. rewrite F. reflexivity.
  Qed.

  Definition ids_from_keys (nd : mnode) (ch : mchain) : Prop :=
    forall round ts, consensus_ids nd ch round ts = map id_of (consensus_keys nd ch round ts).

  Lemma attempt_memo : forall nd ch s ts t, tbl_ok t -> small_node nd -> ids_from_keys nd ch ->
    answers (attempt (cache_verify_cosi agg_verify) nd ch s ts t) (attempt (fresh_cv agg_verify) nd ch s ts tt).
  Proof.
    intros nd ch s ts t Ht Hsm Hids. unfold attempt.
    destruct (consensus_threshold nd ts true) as [base| |] eqn:Eb; [|reflexivity..]. cbn [bind].
    rewrite (Hids (s_round s) ts).
    apply cache_verify_correct; [exact Ht|exact (threshold_in_range _ _ _ Hsm Eb)].
  Qed.

  Lemma verify_memo_fresh : forall nd ch s t,
    tbl_ok t -> small_node nd -> ids_from_keys nd ch ->
    answers (verify_finalization agg_verify nd ch s t) (verify_gen (fresh_cv agg_verify) nd ch s tt).
  Proof.
    intros nd ch s t Ht Hsm Hids. unfold verify_finalization. rewrite !verify_gen_eq. cbv zeta.
    destruct (_ || _ || _); [split; [reflexivity|exact Ht]|].
    pose proof (attempt_memo nd ch s (effective_ts s) t Ht Hsm Hids) as H1.
    destruct (attempt (cache_verify_cosi agg_verify) nd ch s (effective_ts s) t) as [[r t1]| |];
      [|rewrite H1; reflexivity..].
    destruct H1 as [-> Ht1]. cbn [bind fst snd].
    destruct (_ || _ || _ || _); [split; [reflexivity|exact Ht1]|].
    apply attempt_memo; assumption.
  Qed.

  Definition query_ok (q : mnode * mchain * msnap) : Prop :=
    small_node (fst (fst q)) /\ ids_from_keys (fst (fst q)) (snd (fst q)).

  Lemma run_memo_fresh : forall qs t, tbl_ok t -> Forall query_ok qs ->
    run_memo agg_verify qs t
    = map (fun q => verify_fresh agg_verify (fst (fst q)) (snd (fst q)) (snd q)) qs.
  Proof.
    induction qs as [|[[nd ch] s] qs IH]; intros t Ht Hq; cbn [run_memo map fst snd]; [reflexivity|].
    inversion Hq as [|? ? [Hsm Hids] Hq']; subst. cbn [fst snd] in *.
    pose proof (verify_memo_fresh nd ch s t Ht Hsm Hids) as H. unfold verify_fresh.
    destruct (verify_finalization agg_verify nd ch s t) as [[r t']| |]; cbn [answers] in H;
      [destruct H as [H Ht']|..]; rewrite H; cbn [rmap fst]; f_equal; apply IH; assumption.
  Qed.

End FinalityProofs.

Lemma ids_from_keys_of_records : forall (id_of : N -> N) recs genesis epoch mainnet ch,
  Forall (fun r => r_id r = id_of (r_key r)) recs ->
  (forall info, ch_info ch = Some info -> r_id info = id_of (r_key info)) ->
  ids_from_keys id_of (load_node recs genesis epoch mainnet) ch.
Proof.
  intros id_of recs genesis epoch mainnet ch Hr Hi round ts. rewrite Forall_forall in Hr.
  unfold consensus_ids, consensus_keys. rewrite map_map. apply map_ext_in. intros r Hin.
  apply consensus_nodes_recs in Hin. destruct Hin; auto.
Qed.

Lemma small_node_of_records : forall recs genesis epoch mainnet,
  N.of_nat (length recs) < 2 ^ 62 -> small_node (load_node recs genesis epoch mainnet).
Proof.
  intros recs genesis epoch mainnet H ts.
  (* the list holds records of [recs], at most one per node id *)
  destruct (nodes_list_recs recs genesis epoch mainnet ts false) as [Hi Hn].
  apply NoDup_map_inv in Hn. apply (NoDup_incl_length Hn) in Hi. rewrite map_length in Hi. lia.
Qed.
