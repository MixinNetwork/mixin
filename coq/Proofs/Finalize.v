(* Lemmas about the finalization model (Model/Finalize.v): atomicity, effect
   families and first-finalization-wins of write_snapshot (C15); supply
   accounting over validated histories (C17). *)
From Coq Require Import List ZArith NArith Bool Lia ZifyN ZifyNat ZifyBool Permutation.
Require Import Mixin.Base.Res Mixin.Gen.Consts Mixin.Model.Fixed Mixin.Model.Finalize.
Require Import Mixin.Proofs.Res Mixin.Proofs.Lists Mixin.Proofs.Fixed.
Import ListNotations.
Open Scope Z_scope.

Definition eqb_ok {K} (eqb : K -> K -> bool) := forall a b, reflect (a = b) (eqb a b).

Lemma eq1_ok : eqb_ok eq1.
Proof. exact N.eqb_spec. Qed.

Lemma eq2_ok : eqb_ok eq2.
Proof.
  intros [a1 a2] [b1 b2]. unfold eq2. cbn [fst snd].
  destruct (N.eqb_spec a1 b1), (N.eqb_spec a2 b2); constructor; congruence.
Qed.

Lemma eq3_ok : eqb_ok eq3.
Proof.
  intros [[a1 a2] a3] [[b1 b2] b3]. unfold eq3. cbn [fst snd].
  destruct (N.eqb_spec a1 b1), (N.eqb_spec a2 b2), (N.eqb_spec a3 b3); constructor; congruence.
Qed.

Lemma eqb_refl {K} {eqb : K -> K -> bool} (Hok : eqb_ok eqb) a : eqb a a = true.
Proof. destruct (Hok a a); congruence. Qed.

Section MapLemmas.
  Context {K V : Type} {eqb : K -> K -> bool} (Hok : eqb_ok eqb).
  Implicit Types (m : list (K * V)) (k : K) (v : V).

  Lemma lookup_set m k v k' :
    lookup eqb (set eqb m k v) k' = if eqb k k' then Some v else lookup eqb m k'.
  Proof.
    induction m as [|[k0 v0] m IH]; cbn [set lookup]; [reflexivity|].
    destruct (Hok k0 k) as [->|Hn]; cbn [lookup]; [destruct (eqb k k'); reflexivity|].
    rewrite IH. destruct (Hok k0 k') as [->|]; [|reflexivity]. destruct (Hok k k'); congruence.
  Qed.

  Lemma mem_set m k v k' : mem eqb (set eqb m k v) k' = eqb k k' || mem eqb m k'.
  Proof. unfold mem. rewrite lookup_set. destruct (eqb k k'); reflexivity. Qed.

  Lemma set_absent m k v : lookup eqb m k = None -> set eqb m k v = m ++ [(k, v)].
  Proof.
    induction m as [|[k0 v0] m IH]; cbn [set lookup app]; [reflexivity|].
    destruct (eqb k0 k); [discriminate|]. intros H. rewrite IH; auto.
  Qed.

  Lemma lookup_in m k v : lookup eqb m k = Some v -> In (k, v) m.
  Proof.
    induction m as [|[k0 v0] m IH]; cbn [lookup]; [discriminate|].
    destruct (Hok k0 k) as [->|]; [intros [= ->]; left; reflexivity|right; auto].
  Qed.

  Lemma in_mem m k v : In (k, v) m -> mem eqb m k = true.
  Proof.
    unfold mem. induction m as [|[k0 v0] m IH]; cbn [lookup In]; [intros []|].
    destruct (Hok k0 k); [reflexivity|]. intros [E|H]; [congruence|auto].
  Qed.

  Lemma in_lookup_nodup m k v : NoDup (map fst m) -> In (k, v) m -> lookup eqb m k = Some v.
  Proof.
    induction m as [|[k0 v0] m IH]; cbn [map fst lookup In]; [intros _ []|].
    intros Hnd [E|Hin]; inversion_clear Hnd as [|? ? Hk0 Hm].
    - injection E as -> ->. rewrite (eqb_refl Hok). reflexivity.
    - destruct (Hok k0 k) as [->|]; [|auto]. destruct Hk0. exact (in_map fst _ _ Hin).
  Qed.

  Lemma in_set_cases m k0 v k u : In (k, u) (set eqb m k0 v) -> In (k, u) m \/ (k, u) = (k0, v).
  Proof.
    induction m as [|[k1 v1] m IH]; cbn [set].
    - intros [H|[]]. right. auto.
    - destruct (Hok k1 k0) as [->|]; cbn [In]; intros [H|H]; auto. apply IH in H. tauto.
  Qed.

  Lemma set_nodup m k v : NoDup (map fst m) -> NoDup (map fst (set eqb m k v)).
  Proof.
    induction m as [|[k0 v0] m IH]; cbn [set map fst]; intros H; [repeat constructor; intros []|].
    inversion_clear H as [|? ? Hk0 Hm]. destruct (eqb k0 k) eqn:E; cbn [map fst]; constructor; auto.
    intros Hin. apply in_map_iff in Hin. destruct Hin as ([k1 u] & <- & Hin).
    destruct (in_set_cases _ _ _ _ _ Hin) as [Hin'|[= -> ->]].
    - exact (Hk0 (in_map fst _ _ Hin')).
    - cbn [fst] in E. rewrite (eqb_refl Hok) in E. discriminate E.
  Qed.
End MapLemmas.

Lemma mem_N_In : forall x l, mem_N x l = true <-> In x l.
Proof.
  induction l as [|y l IH]; cbn [mem_N In]; [split; [discriminate|intros []]|].
  rewrite orb_true_iff, N.eqb_eq, IH. reflexivity.
Qed.

(* what the writers called for one output leave alone: everything except output,
   ghost key, node, custodian and withdrawal records *)
Definition kept (s : state) :=
  (s_txs s, s_fin s, s_ainfo s, s_total s, s_uniq s, s_snap s, s_topo s, s_snaptopo s, s_work s, s_round s).
Definition keptu (s : state) := (kept s, s_utxo s).

Lemma lock_ghosts_kept ks : forall s h s', lock_ghosts s ks h = Ok s' -> keptu s' = keptu s.
Proof.
  induction ks as [|k r IH]; cbn [lock_ghosts]; intros s h s' H; [injection H as <-; reflexivity|].
  apply bind_ok in H as (s1 & Hk & H). rewrite (IH _ _ _ H). unfold lock_ghost in Hk.
  repeat res_step Hk; reflexivity.
Qed.

Lemma write_node_pledge_kept s a b c d s' : write_node_pledge s a b c d = Ok s' -> keptu s' = keptu s.
Proof. unfold write_node_pledge. intros H. repeat res_step H. reflexivity. Qed.

Lemma write_node_aoc_kept s a b c d e g s' :
  write_node_accept_or_cancel s a b c d e g = Ok s' -> keptu s' = keptu s.
Proof. unfold write_node_accept_or_cancel. intros H. repeat res_step H; reflexivity. Qed.

Lemma write_node_remove_kept s a b c d s' : write_node_remove s a b c d = Ok s' -> keptu s' = keptu s.
Proof. unfold write_node_remove. intros H. repeat res_step H. reflexivity. Qed.

Lemma write_custodian_kept s t ts s' : write_custodian s t ts = Ok s' -> keptu s' = keptu s.
Proof. unfold write_custodian. intros H. repeat res_step H; reflexivity. Qed.

Lemma write_claim_kept s t s' : write_claim s t = Ok s' -> keptu s' = keptu s.
Proof. unfold write_claim. intros H. repeat res_step H. reflexivity. Qed.

Definition mk_utxo (t : tx) (o : output) : utxo :=
  {| u_asset := t_asset t; u_type := o_type o; u_amount := o_amount o; u_keys := o_keys o; u_lock := 0%N |}.

Lemma write_utxo_shape s t ts g io s' : write_utxo s t ts g io = Ok s' ->
  kept s' = kept s /\ s_utxo s' = set eq2 (s_utxo s) (t_hash t, fst io) (mk_utxo t (snd io)).
Proof.
  destruct io as [i o]. unfold write_utxo. intros H. apply bind_ok in H as (s1 & Hg & H).
  apply lock_ghosts_kept in Hg. destruct (max_utxo_index <? i)%N; [discriminate H|].
  set (s2 := with_utxo s1 _) in H.
  assert (E : keptu s' = keptu s2).
  { (* one branch per output type, in the order of the [if] cascade of write_utxo:
       pledge, cancel, accept, remove, custodian, claim, any other type *)
    repeat match type of H with (if ?b then _ else _) = _ => destruct b end;
      [exact (write_node_pledge_kept _ _ _ _ _ _ H)|exact (write_node_aoc_kept _ _ _ _ _ _ _ _ H)
      |exact (write_node_aoc_kept _ _ _ _ _ _ _ _ H)|exact (write_node_remove_kept _ _ _ _ _ _ H)
      |exact (write_custodian_kept _ _ _ _ H)|exact (write_claim_kept _ _ _ H)|injection H as <-; reflexivity]. }
  apply pair_equal_spec in E as [K U], Hg as [K1 U1]. split; [exact (eq_trans K K1)|].
  rewrite U. cbn [s2 s_utxo with_utxo fst snd]. rewrite U1. reflexivity.
Qed.

Definition put_utxos (t : tx) (l : list (N * output)) (m : list ((N * N) * utxo)) :=
  fold_left (fun m io => set eq2 m (t_hash t, fst io) (mk_utxo t (snd io))) l m.

Lemma write_utxos_shape l : forall s t ts g s', write_utxos s t ts g l = Ok s' ->
  kept s' = kept s /\ s_utxo s' = put_utxos t l (s_utxo s).
Proof.
  induction l as [|io r IH]; cbn [write_utxos]; intros s t ts g s' H; [injection H as <-; auto|].
  apply bind_ok in H as (s1 & H1 & H).
  destruct (write_utxo_shape _ _ _ _ _ _ H1) as [K1 U1], (IH _ _ _ _ _ H) as [K2 U2].
  split; [congruence|]. rewrite U2, U1. reflexivity.
Qed.

Lemma write_asset_info_shape s a info s' : write_asset_info s a info = Ok s' -> exists v, s' = with_ainfo s v.
Proof.
  unfold write_asset_info. intros H. destruct (lookup eq1 (s_ainfo s) a).
  - destruct (eq2 p info); [|discriminate H]. injection H as <-. exists (s_ainfo s). destruct s. reflexivity.
  - injection H as <-. eexists. reflexivity.
Qed.

Lemma write_total_shape s t s' : write_total s t = Ok s' ->
  exists nt, new_total t (total_of s (t_asset t)) = Ok nt /\
    match nt with
    | None => s' = s
    | Some v => s' = with_total s (set eq1 (s_total s) (t_asset t) v) /\ v <= capacity (t_asset t)
    end.
Proof.
  unfold write_total. intros H. destruct (negb _); [discriminate H|].
  apply bind_ok in H as (nt & Hnt & H). exists nt. split; [exact Hnt|].
  destruct nt as [v|]; [destruct (Z.ltb_spec (capacity (t_asset t)) v); [discriminate H|]|];
    injection H as <-; auto.
Qed.

Lemma finalize_tx_done : forall s t sn, finalized s (t_hash t) = true -> finalize_tx s t sn = Ok s.
Proof. intros s t sn H. unfold finalize_tx. unfold finalized in H. rewrite H. reflexivity. Qed.

(* finalize_tx on a transaction not yet finalized, family by family; the ghost key,
   asset info, node, custodian and withdrawal families are left unconstrained *)
Record fresh_effect (s : state) (t : tx) (sn : snapshot) (s' : state) : Prop := {
  fe_txs : s_txs s' = s_txs s;
  fe_uniq : s_uniq s' = s_uniq s;
  fe_snap : s_snap s' = s_snap s;
  fe_topo : s_topo s' = s_topo s;
  fe_snaptopo : s_snaptopo s' = s_snaptopo s;
  fe_work : s_work s' = s_work s;
  fe_round : s_round s' = s_round s;
  fe_fin : s_fin s' = set eq1 (s_fin s) (t_hash t) (sn_hash sn);
  fe_utxo : exists us, unspent_outputs t = Ok us /\ s_utxo s' = put_utxos t us (s_utxo s);
  fe_total : exists nt, new_total t (total_of s (t_asset t)) = Ok nt /\
      match nt with
      | None => s_total s' = s_total s
      | Some v => s_total s' = set eq1 (s_total s) (t_asset t) v /\ v <= capacity (t_asset t)
      end
}.

Lemma finalize_tx_fresh : forall s t sn s', finalized s (t_hash t) = false ->
  finalize_tx s t sn = Ok s' -> fresh_effect s t sn s'.
Proof.
  intros s t sn s' Hf H. unfold finalize_tx in H. unfold finalized in Hf. rewrite Hf in H.
  destruct (t_inputs t) as [|i0 _]; [discriminate H|]. set (s1 := with_fin s _) in H.
  apply bind_ok in H as (s2 & Ha & H).
  assert (exists v, s2 = with_ainfo s1 v) as [v ->].
  { destruct i0; try (injection Ha as <-; exists (s_ainfo s); reflexivity).
    exact (write_asset_info_shape _ _ _ _ Ha). }
  apply bind_ok in H as (us & Hus & H). apply bind_ok in H as (s3 & Hw & H).
  apply write_utxos_shape in Hw. destruct Hw as [K U].
  apply write_total_shape in H. destruct H as (nt & Hnt & Hs').
  (* K4 is the s_total component of [kept] *)
  injection K as K1 K2 K3 K4 K5 K6 K7 K8 K9 K10. unfold total_of in Hnt. rewrite K4 in Hnt.
  destruct nt as [x|]; [destruct Hs' as [-> Hcap]|subst s']; (constructor; [assumption..|exists us; auto|]).
  - exists (Some x). cbn [s_total with_total]. rewrite K4. auto.
  - exists None. auto.
Qed.

(* the TRANSACTION family is content addressed (C06) *)
Definition wf_txs (s : state) : Prop := forall h t, lookup eq1 (s_txs s) h = Some t -> t_hash t = h.

Lemma not_finalized s h : finalized s h = false -> lookup eq1 (s_fin s) h = None.
Proof. unfold finalized, mem. destruct (lookup eq1 (s_fin s) h); [discriminate|reflexivity]. Qed.

Lemma put_utxos_other t l : forall m x i, x <> t_hash t ->
  lookup eq2 (put_utxos t l m) (x, i) = lookup eq2 m (x, i).
Proof.
  unfold put_utxos. induction l as [|io r IH]; intros m x i Hn; cbn [fold_left]; [reflexivity|].
  rewrite IH, (lookup_set eq2_ok) by exact Hn. destruct (eq2_ok (t_hash t, fst io) (x, i)); congruence.
Qed.

Lemma finalize_member_ok s sn h s1 : wf_txs s -> finalize_member s sn h = Ok s1 ->
  exists t s0, lookup eq1 (s_txs s) (t_hash t) = Some t /\ h = t_hash t /\
    s1 = with_uniq s0 (set eq2 (s_uniq s0) (h, sn_node sn) tt) /\
    (finalized s h = true /\ s0 = s \/ finalized s h = false /\ finalize_tx s t sn = Ok s0).
Proof.
  unfold finalize_member. intros Hwf H. destruct (lookup eq1 (s_txs s) h) as [t|] eqn:Hb; [|discriminate H].
  apply bind_ok in H as (s0 & H0 & [= <-]). pose proof (Hwf h t Hb) as <-. exists t, s0.
  repeat split; auto. destruct (finalized s (t_hash t)) eqn:Hf; [left|auto].
  rewrite finalize_tx_done in H0 by exact Hf. injection H0 as <-. auto.
Qed.

(* me_utxo: the outputs under h are untouched unless h is a member that this call
   finalizes; me_idem: when every member is already finalized only the per-node
   uniqueness records change *)
Record members_effect (s : state) (sn : snapshot) (hs : list N) (s' : state) : Prop := {
  me_txs : s_txs s' = s_txs s;
  me_snap : s_snap s' = s_snap s;
  me_topo : s_topo s' = s_topo s;
  me_snaptopo : s_snaptopo s' = s_snaptopo s;
  me_work : s_work s' = s_work s;
  me_round : s_round s' = s_round s;
  me_fin : forall h, lookup eq1 (s_fin s') h =
             match lookup eq1 (s_fin s) h with
             | Some v => Some v
             | None => if mem_N h hs then Some (sn_hash sn) else None
             end;
  me_uniq : forall k, mem eq2 (s_uniq s') k =
             mem eq2 (s_uniq s) k || (mem_N (fst k) hs && (snd k =? sn_node sn)%N);
  me_utxo : forall h i, mem_N h hs && negb (finalized s h) = false ->
             lookup eq2 (s_utxo s') (h, i) = lookup eq2 (s_utxo s) (h, i);
  me_idem : (forall h, In h hs -> finalized s h = true) ->
             s_fin s' = s_fin s /\ s_utxo s' = s_utxo s /\ s_ghost s' = s_ghost s /\
             s_ainfo s' = s_ainfo s /\ s_total s' = s_total s /\ s_nodes s' = s_nodes s /\
             s_cust s' = s_cust s /\ s_wdr s' = s_wdr s
}.

Lemma finalize_member_effect s sn h s1 : wf_txs s ->
  finalize_member s sn h = Ok s1 -> members_effect s sn [h] s1.
Proof.
  intros Hwf H. destruct (finalize_member_ok _ _ _ _ Hwf H) as (t & s0 & _ & -> & -> & Hc).
  assert (Hu : forall k, mem eq2 (set eq2 (s_uniq s) (t_hash t, sn_node sn) tt) k =
                 mem eq2 (s_uniq s) k || (mem_N (fst k) [t_hash t] && (snd k =? sn_node sn)%N)).
  { intros [k1 k2]. rewrite (mem_set eq2_ok). unfold eq2. cbn [mem_N fst snd].
    rewrite orb_false_r, orb_comm, (N.eqb_sym k2). reflexivity. }
  destruct Hc as [[Hf ->]|[Hf H0]].
  - constructor; cbn [s_uniq s_fin with_uniq]; auto.
    + intros x. cbn [mem_N]. destruct (N.eqb_spec (t_hash t) x) as [<-|]; [|destruct (lookup eq1 _ x); reflexivity].
      unfold finalized, mem in Hf. destruct (lookup eq1 (s_fin s) (t_hash t)); [reflexivity|discriminate Hf].
    + intros _. repeat split.
  - destruct (finalize_tx_fresh _ _ _ _ Hf H0) as [Et Eu ? ? ? ? ? Ef (us & _ & Eo) _].
    constructor; cbn [s_uniq with_uniq]; try assumption.
    + intros x. cbn [s_fin with_uniq mem_N]. rewrite Ef, (lookup_set eq1_ok), orb_false_r.
      change (eq1 (t_hash t) x) with (t_hash t =? x)%N.
      destruct (N.eqb_spec (t_hash t) x) as [<-|]; [rewrite (not_finalized _ _ Hf)|destruct (lookup eq1 _ x)]; reflexivity.
    + rewrite Eu. exact Hu.
    + intros x i Hx. cbn [s_utxo with_uniq]. rewrite Eo. apply put_utxos_other. intros ->.
      cbn [mem_N] in Hx. rewrite N.eqb_refl, Hf in Hx. discriminate Hx.
    + intros Hall. rewrite Hall in Hf by (left; reflexivity). discriminate Hf.
Qed.

Lemma members_effect_cons s sn h r s1 s' :
  members_effect s sn [h] s1 -> members_effect s1 sn r s' -> members_effect s sn (h :: r) s'.
Proof.
  intros E1 E2.
  assert (Hfin : forall x, finalized s x = true -> finalized s1 x = true).
  { intros x. unfold finalized, mem. rewrite (me_fin _ _ _ _ E1). destruct (lookup eq1 (s_fin s) x); [reflexivity|discriminate]. }
  destruct E1 as [T1 S1 O1 P1 W1 R1 F1 U1 X1 I1], E2 as [T2 S2 O2 P2 W2 R2 F2 U2 X2 I2].
  constructor; [congruence..| | | |].
  - intros x. rewrite F2, F1. cbn [mem_N]. destruct (lookup eq1 (s_fin s) x), (h =? x)%N; reflexivity.
  - intros k. rewrite U2, U1. cbn [mem_N]. rewrite orb_false_r, <- orb_assoc, <- andb_orb_distrib_l. reflexivity.
  - intros x i Hx. cbn [mem_N] in Hx. destruct (finalized s x) eqn:Hf.
    + rewrite X2, X1; auto; [rewrite Hf|rewrite (Hfin x Hf)]; apply andb_false_r.
    + rewrite andb_true_r in Hx. apply orb_false_elim in Hx as [Hh Hr].
      rewrite X2, X1; auto; cbn [mem_N]; rewrite ?Hh, ?Hr; reflexivity.
  - intros Hall. destruct I1 as (A1&A2&A3&A4&A5&A6&A7&A8); [intros x [<-|[]]; apply Hall; left; reflexivity|].
    destruct I2 as (B1&B2&B3&B4&B5&B6&B7&B8); [|repeat split; congruence].
    intros x Hx. apply Hfin, Hall. right. exact Hx.
Qed.

Lemma finalize_members_effect : forall hs s sn s', wf_txs s ->
  finalize_members s sn hs = Ok s' -> members_effect s sn hs s'.
Proof.
  induction hs as [|h r IH]; cbn [finalize_members]; intros s sn s' Hwf H.
  - injection H as <-. constructor; auto.
    + intros h. destruct (lookup eq1 (s_fin s) h); reflexivity.
    + intros k. apply eq_sym, orb_false_r.
    + intros _. repeat split.
  - apply bind_ok in H as (s1 & H1 & H). apply finalize_member_effect in H1; [|exact Hwf].
    eapply members_effect_cons; [exact H1|]. apply IH; [|exact H].
    unfold wf_txs. rewrite (me_txs _ _ _ _ H1). exact Hwf.
Qed.

Lemma write_snapshot_all_or_nothing : forall s sn sg s' r,
  write_snapshot s sn sg = (s', r) -> r <> Ok tt -> s' = s.
Proof.
  intros s sn sg s' r H Hr. unfold write_snapshot in H.
  destruct (write_snapshot_txn s sn sg); injection H as <- <-; congruence.
Qed.

Lemma step_all_or_nothing : forall s o s' r, step s o = (s', r) -> r <> Ok tt -> s' = s.
Proof.
  intros s o s' r H Hr. destruct o; cbn [step] in H.
  - injection H as <- <-. congruence.
  - unfold load_genesis in H. destruct (bind _ _); injection H as <- <-; congruence.
  - unfold write_transaction in H. destruct (mem eq1 (s_txs s) (t_hash t)); [|destruct (t_inputs t) as [|[] ?]];
      repeat match type of H with (if ?b then _ else _) = _ => destruct b end; injection H as <- <-; congruence.
  - unfold lock_utxos in H. destruct (lock_utxos_txn s ks h); injection H as <- <-; congruence.
  - unfold lock_ghost_keys in H. destruct (has_dup ks); [|destruct (lock_ghosts s ks h)];
      injection H as <- <-; congruence.
  - exact (write_snapshot_all_or_nothing _ _ _ _ _ H Hr).
Qed.

Lemma write_snapshot_core_ok s sn s' : write_snapshot_core s sn = Ok s' ->
  exists s1, finalize_members s sn (sn_txs sn) = Ok s1 /\
    s' = with_snaptopo (with_topo (with_snap s1 (set eq3 (s_snap s1) (snap_key sn) (sn_hash sn)))
                                  (set eq1 (s_topo s1) (sn_topo sn) (snap_key sn)))
                       (set eq1 (s_snaptopo s1) (sn_hash sn) (sn_topo sn)).
Proof.
  unfold write_snapshot_core, write_topology. intros H. apply bind_ok in H as (s1 & Hm & H).
  destruct (mem eq1 _ _); [discriminate H|]. injection H as <-. eauto.
Qed.

Lemma write_snapshot_ok s sn sg s' : write_snapshot s sn sg = (s', Ok tt) ->
  exists s1, write_snapshot_core s sn = Ok s1 /\ s' = write_work s1 sn sg.
Proof.
  unfold write_snapshot, write_snapshot_txn. intros H.
  destruct (debug_asserts s sn); cbn [bind] in H; [|discriminate H..].
  destruct (write_snapshot_core s sn) as [s1| |]; cbn [bind] in H; [|discriminate H..].
  injection H as <-. eauto.
Qed.

Lemma write_transaction_txs : forall s t s' r, write_transaction s t = (s', r) ->
  s' = s \/ (lookup eq1 (s_txs s) (t_hash t) = None /\ s' = with_txs s (set eq1 (s_txs s) (t_hash t) t)).
Proof.
  intros s t s' r H. unfold write_transaction, mem in H.
  destruct (lookup eq1 (s_txs s) (t_hash t)); [|destruct (t_inputs t)];
    repeat match type of H with (if ?b then _ else _) = _ => destruct b end; injection H as <- _; auto.
Qed.

Definition with_lock (u : utxo) (h : N) : utxo :=
  {| u_asset := u_asset u; u_type := u_type u; u_amount := u_amount u; u_keys := u_keys u; u_lock := h |}.

Lemma lock_utxo_shape : forall s k h s', lock_utxo s k h = Ok s' ->
  exists u, lookup eq2 (s_utxo s) k = Some u /\ (u_lock u = 0%N \/ u_lock u = h) /\
    s' = with_utxo s (set eq2 (s_utxo s) k (with_lock u h)).
Proof.
  intros s k h s' H. unfold lock_utxo in H. destruct (lookup eq2 (s_utxo s) k) as [u|]; [|discriminate H].
  destruct (negb (u_lock u =? 0)%N && negb (u_lock u =? h)%N) eqn:E; [discriminate H|]. injection H as <-.
  exists u. repeat split. lia.
Qed.

(* the families the accounting reads: an invariant over them alone is carried
   across every write to another family *)
Definition core3 (s : state) := (s_txs s, s_fin s, s_total s).
Definition core (s : state) := (core3 s, s_utxo s).

Lemma lock_utxos_txn_core3 ks : forall s h s', lock_utxos_txn s ks h = Ok s' -> core3 s' = core3 s.
Proof.
  induction ks as [|k r IH]; cbn [lock_utxos_txn]; intros s h s' H; [injection H as <-; reflexivity|].
  apply bind_ok in H as (s1 & H1 & H). apply lock_utxo_shape in H1. destruct H1 as (u & _ & _ & ->).
  exact (IH _ _ _ H).
Qed.

(* A property P of states that survives the four kinds of write below survives
   every store call.  The writes may need side conditions: okt on a transaction
   body being stored, okf on a transaction at the moment it is first finalized,
   okl on a lock request; [opok] asks them of the operations of a history.
   [members] and [gen] quantify over the state that the earlier members leave
   (finalize_member s sn h = Ok s1) because okf is asked of a member at the moment
   it is finalized.  P_ext over [core] is what lets every write to another family
   pass by reflexivity. *)
Section Preserve.
  Variables (P : state -> Prop) (okt : tx -> Prop) (okf : state -> tx -> Prop) (okl : list (N * N) -> N -> Prop).
  Hypothesis P_ext : forall s s', core s' = core s -> P s -> P s'.
  Hypothesis P_wf : forall s, P s -> wf_txs s.
  Hypothesis P_tx : forall s t, P s -> okt t -> lookup eq1 (s_txs s) (t_hash t) = None ->
    P (with_txs s (set eq1 (s_txs s) (t_hash t) t)).
  Hypothesis P_lock : forall s ks h s', P s -> okl ks h -> lock_utxos_txn s ks h = Ok s' -> P s'.
  Hypothesis P_fin : forall s t sn s', P s -> lookup eq1 (s_txs s) (t_hash t) = Some t ->
    finalized s (t_hash t) = false -> okf s t -> finalize_tx s t sn = Ok s' -> P s'.

  Fixpoint members (s : state) (sn : snapshot) (hs : list N) : Prop :=
    match hs with
    | [] => True
    | h :: r => (forall t, lookup eq1 (s_txs s) h = Some t -> finalized s h = false -> okf s t)
                /\ (forall s1, finalize_member s sn h = Ok s1 -> members s1 sn r)
    end.

  Fixpoint gen (s : state) (l : list (snapshot * tx)) : Prop :=
    match l with
    | [] => True
    | (sn, t) :: r =>
        okt t /\
        (let s1 := fst (write_transaction s t) in
         members s1 sn (sn_txs sn) /\
         (forall s2, write_snapshot_core s1 sn = Ok s2 -> gen (write_work s2 sn []) r))
    end.

  Definition opok (s : state) (o : op) : Prop :=
    match o with
    | OpRound _ _ _ => True
    | OpGhost _ _ => True
    | OpWriteTx t => okt t
    | OpLock ks h => okl ks h
    | OpSnapshot sn _ => members s sn (sn_txs sn)
    | OpGenesis xin l => forall s1, write_asset_info s Consts.Fin_Asset_XIN xin = Ok s1 -> gen s1 l
    end.

  Lemma members_cons s sn h r t0 s1 : lookup eq1 (s_txs s) h = Some t0 ->
    (finalized s h = false -> okf s t0) -> finalize_member s sn h = Ok s1 -> members s1 sn r ->
    members s sn (h :: r).
  Proof.
    intros Hb Hv Hm Hr. split.
    - intros t Ht Hf. rewrite Hb in Ht. injection Ht as <-. exact (Hv Hf).
    - intros s1' Hm'. rewrite Hm in Hm'. injection Hm' as <-. exact Hr.
  Qed.

  Lemma members_P hs : forall s sn s', P s -> members s sn hs -> finalize_members s sn hs = Ok s' -> P s'.
  Proof.
    induction hs as [|h r IH]; cbn [finalize_members members]; intros s sn s' p V H.
    - injection H as <-. exact p.
    - destruct V as [V1 V2]. apply bind_ok in H as (s1 & H1 & H). apply (IH s1 sn); [|exact (V2 s1 H1)|exact H].
      destruct (finalize_member_ok _ _ _ _ (P_wf _ p) H1) as (t & s0 & Hb & -> & -> & Hc).
      apply (P_ext s0); [reflexivity|]. destruct Hc as [[_ ->]|[Hf H0]]; eauto.
  Qed.

  Lemma write_transaction_P s t s' r : P s -> okt t -> write_transaction s t = (s', r) -> P s'.
  Proof. intros p Ht H. destruct (write_transaction_txs _ _ _ _ H) as [->|[Hn ->]]; auto. Qed.

  Lemma write_snapshot_core_P s sn s' : P s -> members s sn (sn_txs sn) -> write_snapshot_core s sn = Ok s' -> P s'.
  Proof.
    intros p V H. destruct (write_snapshot_core_ok _ _ _ H) as (s1 & Hm & ->).
    apply (P_ext s1); [reflexivity|]. exact (members_P _ _ _ _ p V Hm).
  Qed.

  Lemma load_genesis_members_P l : forall s s', P s -> gen s l -> load_genesis_members s l = Ok s' -> P s'.
  Proof.
    induction l as [|[sn t] r IH]; cbn [load_genesis_members gen]; intros s s' p V H; [injection H as <-; exact p|].
    destruct V as (Ht & V1 & V2). destruct (write_transaction s t) as [s1 [[]| |]] eqn:Hw; try discriminate H.
    apply bind_ok in H as (s2 & Hc & H). cbn [fst] in V1, V2. apply (IH (write_work s2 sn [])); [|exact (V2 s2 Hc)|exact H].
    apply (P_ext s2); [reflexivity|]. exact (write_snapshot_core_P _ _ _ (write_transaction_P _ _ _ _ p Ht Hw) V1 Hc).
  Qed.

  Lemma step_P s o : P s -> opok s o -> P (fst (step s o)).
  Proof.
    intros p V. destruct (step s o) as [s' r] eqn:E. cbn [fst].
    destruct r as [[]| |]; try (rewrite (step_all_or_nothing s o s' _ E); [exact p|discriminate]).
    destruct o; cbn [step opok] in E, V.
    - injection E as <-. apply (P_ext s); [reflexivity|exact p].
    - unfold load_genesis in E. destruct (write_asset_info s Consts.Fin_Asset_XIN xin) as [s1| |] eqn:Ha; try discriminate E.
      cbn [bind] in E. destruct (load_genesis_members s1 l) as [s2| |] eqn:Hl; try discriminate E. injection E as <-.
      apply (load_genesis_members_P l s1); [|exact (V s1 eq_refl)|exact Hl].
      destruct (write_asset_info_shape _ _ _ _ Ha) as [v ->]. apply (P_ext s); [reflexivity|exact p].
    - exact (write_transaction_P _ _ _ _ p V E).
    - unfold lock_utxos in E. destruct (lock_utxos_txn s ks h) as [s1| |] eqn:Hl; try discriminate E.
      injection E as <-. exact (P_lock _ _ _ _ p V Hl).
    - unfold lock_ghost_keys in E. destruct (has_dup ks); [discriminate E|].
      destruct (lock_ghosts s ks h) as [s1| |] eqn:Hl; try discriminate E. injection E as <-.
      apply lock_ghosts_kept in Hl. apply pair_equal_spec in Hl as [[= Kt Kf _ Kl] Ku].
      apply (P_ext s); [unfold core, core3; congruence|exact p].
    - destruct (write_snapshot_ok _ _ _ _ E) as (s1 & Hc & ->).
      apply (P_ext s1); [reflexivity|]. exact (write_snapshot_core_P _ _ _ p V Hc).
  Qed.

  Hypothesis okt_all : forall t, okt t.
  Hypothesis okf_all : forall s t, okf s t.
  Hypothesis okl_all : forall ks h, okl ks h.

  Lemma members_all hs : forall s sn, members s sn hs.
  Proof. induction hs; cbn [members]; auto. Qed.

  Lemma gen_all l : forall s, gen s l.
  Proof. induction l as [|[sn t] r IH]; cbn [gen]; auto using members_all. Qed.

  Lemma run_P ops : forall s, P s -> P (run s ops).
  Proof.
    apply fold_left_inv. intros s o _ p. apply step_P; [exact p|].
    destruct o; cbn [opok]; auto using members_all, gen_all.
  Qed.
End Preserve.

Lemma members_impl (okf okf' : state -> tx -> Prop) : (forall s t, okf s t -> okf' s t) ->
  forall hs s sn, members okf s sn hs -> members okf' s sn hs.
Proof.
  intros Himp. induction hs as [|h r IH]; cbn [members]; [auto|]. intros s sn [H1 H2]. split; auto.
Qed.

Lemma wf_txs_ext s s' : s_txs s' = s_txs s -> wf_txs s -> wf_txs s'.
Proof. unfold wf_txs. intros ->. auto. Qed.

Lemma with_txs_wf s t : wf_txs s -> wf_txs (with_txs s (set eq1 (s_txs s) (t_hash t) t)).
Proof.
  intros Hwf h t0. cbn [s_txs with_txs]. rewrite (lookup_set eq1_ok).
  destruct (eq1_ok (t_hash t) h) as [<-|]; [intros [= <-]; reflexivity|apply Hwf].
Qed.

Lemma run_wf : forall ops s, wf_txs s -> wf_txs (run s ops).
Proof.
  apply (run_P wf_txs (fun _ => True) (fun _ _ => True) (fun _ _ => True)); auto.
  - intros s s' [= E _ _ _]. exact (wf_txs_ext _ _ E).
  - intros s t Hwf _ _. exact (with_txs_wf s t Hwf).
  - intros s ks h s' Hwf _ H. apply lock_utxos_txn_core3 in H. injection H as E _ _. exact (wf_txs_ext _ _ E Hwf).
  - intros s t sn s' Hwf _ Hf _ H. exact (wf_txs_ext _ _ (fe_txs _ _ _ _ (finalize_tx_fresh _ _ _ _ Hf H)) Hwf).
Qed.

Lemma empty_wf : wf_txs empty_state.
Proof. intros h t H. discriminate H. Qed.

Definition zsum {A} (f : A -> Z) (l : list A) : Z := fold_right (fun x acc => f x + acc) 0 l.

Lemma zsum_cons {A} (f : A -> Z) x l : zsum f (x :: l) = f x + zsum f l.
Proof. reflexivity. Qed.

Lemma zsum_app {A} (f : A -> Z) l1 l2 : zsum f (l1 ++ l2) = zsum f l1 + zsum f l2.
Proof. induction l1 as [|x l IH]; cbn [app]; rewrite ?zsum_cons, ?IH; [reflexivity|lia]. Qed.

Lemma zsum_map {A B} (g : A -> B) (f : B -> Z) l : zsum f (map g l) = zsum (fun x => f (g x)) l.
Proof. induction l as [|x l IH]; [reflexivity|]. cbn [map]. rewrite !zsum_cons, IH. reflexivity. Qed.

Lemma zsum_filter {A} (p : A -> bool) (f : A -> Z) l :
  zsum (fun x => if p x then f x else 0) l = zsum f (filter p l).
Proof.
  induction l as [|x l IH]; [reflexivity|]. cbn [filter]. rewrite zsum_cons, IH.
  destruct (p x); [rewrite zsum_cons|]; reflexivity.
Qed.

Lemma zsum_perm {A} (f : A -> Z) l l' : Permutation l l' -> zsum f l = zsum f l'.
Proof. induction 1; rewrite ?zsum_cons; lia. Qed.

Lemma zsum_ext {A} (f g : A -> Z) l : (forall x, In x l -> f x = g x) -> zsum f l = zsum g l.
Proof.
  induction l as [|x l IH]; intros H; [reflexivity|].
  rewrite !zsum_cons, IH, (H x) by auto using in_eq, in_cons. reflexivity.
Qed.

Lemma zsum_zero {A} (f : A -> Z) l : (forall x, In x l -> f x = 0) -> zsum f l = 0.
Proof. intros H. rewrite (zsum_ext f (fun _ => 0) l H). clear H. induction l; [reflexivity|assumption]. Qed.

Lemma zsum_set_present {K V} {eqb : K -> K -> bool} (Hok : eqb_ok eqb) (f : K * V -> Z) m k v old :
  lookup eqb m k = Some old -> zsum f (set eqb m k v) = zsum f m - f (k, old) + f (k, v).
Proof.
  induction m as [|[k0 v0] m IH]; cbn [lookup set]; [discriminate|].
  destruct (Hok k0 k) as [->|]; [intros [= ->]|intros H; specialize (IH H)]; rewrite !zsum_cons; lia.
Qed.

(* the summand of unconsumed_sum over the finalization records alone, which usum_finalize varies *)
Definition uval (fin : list (N * N)) (a : N) (u : utxo) : Z :=
  if (u_asset u =? a)%N && negb (negb (u_lock u =? 0)%N && mem eq1 fin (u_lock u)) then u_amount u else 0.
Definition usum (fin : list (N * N)) (a : N) (m : list ((N * N) * utxo)) : Z :=
  zsum (fun e => uval fin a (snd e)) m.

Lemma unconsumed_sum_usum s a : unconsumed_sum s a = usum (s_fin s) a (s_utxo s).
Proof.
  unfold unconsumed_sum, usum, zsum. induction (s_utxo s) as [|e l IH]; [reflexivity|].
  cbn [fold_right]. rewrite IH. unfold uval, consumed, finalized. destruct (_ && _); reflexivity.
Qed.

Definition lval (h a : N) (u : utxo) : Z :=
  if (u_asset u =? a)%N && (u_lock u =? h)%N then u_amount u else 0.
Definition lsum (h a : N) (m : list ((N * N) * utxo)) : Z := zsum (fun e => lval h a (snd e)) m.

Lemma usum_finalize fin h x a m : h <> 0%N -> mem eq1 fin h = false ->
  usum (set eq1 fin h x) a m = usum fin a m - lsum h a m.
Proof.
  intros Hh Hf. unfold usum, lsum. induction m as [|[k u] l IH]; [reflexivity|].
  rewrite !zsum_cons, IH. cbn [snd]. enough (uval (set eq1 fin h x) a u = uval fin a u - lval h a u) by lia.
  clear IH. unfold uval, lval. rewrite (mem_set eq1_ok). unfold eq1 at 1.
  destruct (u_asset u =? a)%N; cbn [andb]; [|reflexivity].
  rewrite (N.eqb_sym h). destruct (N.eqb_spec (u_lock u) h) as [->|_]; cbn [orb]; [|symmetry; apply Z.sub_0_r].
  rewrite Hf. destruct (N.eqb_spec h 0); [contradiction|]. cbn [negb andb]. symmetry. apply Z.sub_diag.
Qed.

Definition amount_at (m : list ((N * N) * utxo)) (k : N * N) : Z :=
  match lookup eq2 m k with Some u => u_amount u | None => 0 end.

Lemma lsum_inputs m ins h a : NoDup (map fst m) -> NoDup ins ->
  (forall k, In k ins -> exists u, lookup eq2 m k = Some u /\ u_asset u = a /\ u_lock u = h) ->
  (forall k u, In (k, u) m -> u_lock u = h -> In k ins) ->
  lsum h a m = zsum (amount_at m) ins.
Proof.
  intros Hnd Hni Hin Hall. set (p := fun e : N * N * utxo => (u_lock (snd e) =? h)%N).
  assert (Hp : Permutation ins (map fst (filter p m))).
  { apply NoDup_Permutation; [exact Hni|exact (NoDup_map_filter fst p m Hnd)|].
    intros k. rewrite in_map_iff. split.
    - intros Hk. destruct (Hin k Hk) as (u & Hu & _ & Hl). exists (k, u). split; [reflexivity|].
      apply filter_In. split; [exact (lookup_in eq2_ok _ _ _ Hu)|apply N.eqb_eq; exact Hl].
    - intros ([k' u] & <- & Hf). apply filter_In in Hf. destruct Hf as [Hm Hl].
      exact (Hall k' u Hm (proj1 (N.eqb_eq _ _) Hl)). }
  rewrite (zsum_perm _ _ _ Hp), zsum_map, <- zsum_filter. apply zsum_ext. intros [k u] Hku.
  unfold lval, amount_at, p. cbn [fst snd]. rewrite (in_lookup_nodup eq2_ok _ _ _ Hnd Hku).
  destruct (N.eqb_spec (u_lock u) h) as [El|]; [|rewrite andb_false_r; reflexivity].
  destruct (Hin k (Hall k u Hku El)) as (u' & Hu' & Ha & _).
  rewrite (in_lookup_nodup eq2_ok _ _ _ Hnd Hku) in Hu'. injection Hu' as <-. rewrite Ha, N.eqb_refl. reflexivity.
Qed.

Lemma unspent_from_keys outs : forall i l, unspent_from i outs = Ok l ->
  NoDup (map fst l) /\ forall j, In j (map fst l) -> (i <= j)%N.
Proof.
  induction outs as [|o0 r IH]; cbn [unspent_from]; intros i l H.
  - injection H as <-. split; [constructor|intros j []].
  - destruct (materialized (o_type o0)) as [b|]; [|discriminate H].
    apply bind_ok in H as (l' & H' & [= <-]). destruct (IH _ _ H') as [Hnd Hge].
    assert (Hge' : forall j, In j (map fst l') -> (i < j)%N) by (intros j Hj; specialize (Hge j Hj); lia).
    destruct b; cbn [map fst In]; split; auto using N.lt_le_incl.
    + constructor; [|exact Hnd]. intros Hi. specialize (Hge' i Hi). lia.
    + intros j [<-|Hj]; [lia|auto using N.lt_le_incl].
Qed.

Definition is_submit (o : output) : bool := o_type o =? ot_submit.
Definition is_slash (o : output) : bool := o_type o =? ot_slash.

Lemma materialized_submit ty b : materialized ty = Some b -> (ty =? ot_slash) = false -> b = negb (ty =? ot_submit).
Proof.
  unfold materialized. intros H Hs. destruct (Z.eqb_spec ty ot_submit) as [->|_]; [injection H as <-; reflexivity|].
  rewrite Hs in H. destruct (_ || _); [injection H as <-; reflexivity|discriminate H].
Qed.

Lemma unspent_from_sum outs : forall i l, unspent_from i outs = Ok l ->
  forallb (fun o => negb (is_slash o)) outs = true ->
  zsum (fun io => o_amount (snd io)) l = sum_outputs outs - sum_submits outs.
Proof.
  induction outs as [|o0 r IH]; cbn [unspent_from forallb]; intros i l H Hs; [injection H as <-; reflexivity|].
  apply andb_true_iff in Hs. destruct Hs as [Hs0 Hs]. apply negb_true_iff in Hs0.
  destruct (materialized (o_type o0)) as [b|] eqn:Hm; [|discriminate H].
  apply bind_ok in H as (l' & H' & [= <-]). apply (materialized_submit _ _ Hm) in Hs0. subst b.
  specialize (IH _ _ H' Hs). unfold sum_outputs, sum_submits in *. cbn [fold_right].
  destruct (o_type o0 =? ot_submit); cbn [negb]; rewrite ?zsum_cons; cbn [snd]; lia.
Qed.

Lemma put_utxos_usum fin a t us : forall m, NoDup (map fst us) ->
  (forall j, In j (map fst us) -> lookup eq2 m (t_hash t, j) = None) ->
  usum fin a (put_utxos t us m) =
  usum fin a m + if (t_asset t =? a)%N then zsum (fun io => o_amount (snd io)) us else 0.
Proof.
  unfold put_utxos. induction us as [|[j o] r IH]; cbn [fold_left map fst]; intros m Hnd Hfree.
  - destruct (t_asset t =? a)%N; cbn; lia.
  - inversion_clear Hnd as [|? ? Hj Hr]. rewrite IH; [|exact Hr|].
    + unfold usum. rewrite set_absent, zsum_app, !zsum_cons by (apply Hfree; left; reflexivity).
      unfold uval at 2. cbn [snd mk_utxo u_asset u_lock u_amount N.eqb negb andb].
      destruct (t_asset t =? a)%N; cbn [andb zsum fold_right]; lia.
    + intros j' Hj'. rewrite (lookup_set eq2_ok). destruct (eq2_ok (t_hash t, j) (t_hash t, j')) as [[= ->]|_]; [contradiction|].
      apply Hfree. right. exact Hj'.
Qed.

Lemma put_utxos_nodup t us : forall m, NoDup (map fst m) -> NoDup (map fst (put_utxos t us m)).
Proof.
  unfold put_utxos. induction us as [|io r IH]; intros m H; cbn [fold_left]; auto using (set_nodup eq2_ok).
Qed.

Lemma put_utxos_in t us : forall m k u, In (k, u) (put_utxos t us m) ->
  In (k, u) m \/ (fst k = t_hash t /\ u_lock u = 0%N).
Proof.
  unfold put_utxos. induction us as [|[j o] r IH]; intros m k u H; cbn [fold_left] in H; auto.
  apply IH in H. destruct H as [H|H]; auto.
  apply (in_set_cases eq2_ok) in H. destruct H as [H|[= -> ->]]; auto.
Qed.

Lemma sub_submits_ok outs : forall total v, 0 <= total -> sub_submits total outs = Ok v ->
  v = total - sum_submits outs /\ 0 <= v.
Proof.
  unfold sum_submits. induction outs as [|o r IH]; cbn [sub_submits fold_right]; intros total v H0 H.
  - injection H as <-. lia.
  - destruct (o_type o =? ot_submit); [|auto]. apply bind_ok in H as (w & E & H).
    apply i_sub_inv in E. destruct (IH w v ltac:(lia) H). lia.
Qed.

Lemma add_outputs_ok outs : forall total v, 0 <= total -> add_outputs total outs = Ok v ->
  v = total + sum_outputs outs /\ 0 <= v.
Proof.
  unfold sum_outputs. induction outs as [|o r IH]; cbn [add_outputs fold_right]; intros total v H0 H.
  - injection H as <-. lia.
  - apply bind_ok in H as (w & E & H). apply i_add_inv in E. destruct (IH w v ltac:(lia) H). lia.
Qed.

Lemma new_total_delta t total nt : 0 <= total -> new_total t total = Ok nt ->
  match nt with
  | None => supply_delta t = 0
  | Some v => v = total + supply_delta t /\ 0 <= v
  end.
Proof.
  intros H0. unfold new_total, supply_delta.
  assert (G : (if is_genesis_tx t then rmap Some (add_outputs total (t_outputs t)) else Ok None) = Ok nt ->
              match nt with
              | None => (if is_genesis_tx t then sum_outputs (t_outputs t) else 0) = 0
              | Some v => v = total + (if is_genesis_tx t then sum_outputs (t_outputs t) else 0) /\ 0 <= v
              end).
  { destruct (is_genesis_tx t); [|intros [= <-]; reflexivity].
    intros H. apply rmap_ok in H as (w & E & ->). exact (add_outputs_ok _ _ _ H0 E). }
  destruct (tx_type t); try exact G; intros H.
  - destruct (t_inputs t) as [|[] r]; try discriminate H.
    apply rmap_ok in H as (w & E & ->). apply i_add_inv in E. lia.
  - destruct (t_inputs t) as [|[] [|]]; try discriminate H.
    apply rmap_ok in H as (w & E & ->). apply i_add_inv in E. lia.
  - apply rmap_ok in H as (w & E & ->). apply sub_submits_ok in E; [lia|exact H0].
Qed.

(* a check of the generated Fin_Cap_* constants, one per branch of [capacity] *)
Lemma capacity_nonneg : forall a, 0 <= capacity a.
Proof.
  intros a. unfold capacity.
  repeat match goal with |- context [if ?b then _ else _] => destruct b end; vm_compute; discriminate.
Qed.

Definition flow_val (txs : list (N * tx)) (a : N) (e : N * N) : Z :=
  match lookup eq1 txs (fst e) with
  | Some t => if (t_asset t =? a)%N then supply_delta t else 0
  | None => 0
  end.

Lemma supply_flow_zsum s a : supply_flow s a = zsum (flow_val (s_txs s) a) (s_fin s).
Proof.
  unfold supply_flow, zsum. induction (s_fin s) as [|e l IH]; [reflexivity|].
  cbn [fold_right]. rewrite IH. unfold flow_val. destruct (lookup eq1 (s_txs s) (fst e)) as [t|]; [|reflexivity].
  destruct (t_asset t =? a)%N; reflexivity.
Qed.

(* the part of [inv] that asks nothing of the transactions: every history keeps it (run_flow) *)
Record flow_inv (s : state) : Prop := {
  j_wf : wf_txs s;
  j_body : forall h, finalized s h = true -> exists t, lookup eq1 (s_txs s) h = Some t;
  j_flow : forall a, total_of s a = supply_flow s a;
  j_bound : forall a, 0 <= total_of s a <= capacity a
}.

Lemma flow_inv_ext s s' : core3 s' = core3 s -> flow_inv s -> flow_inv s'.
Proof.
  intros [= E1 E2 E3] [Hw Hb Hf Hd]. constructor.
  - exact (wf_txs_ext _ _ E1 Hw).
  - unfold finalized. rewrite E1, E2. exact Hb.
  - intros a. unfold total_of. rewrite E3, supply_flow_zsum, E1, E2, <- supply_flow_zsum. apply Hf.
  - intros a. unfold total_of. rewrite E3. apply Hd.
Qed.

Lemma flow_inv_empty : flow_inv empty_state.
Proof.
  constructor; try discriminate; intros a; [reflexivity|]. split; [reflexivity|apply capacity_nonneg].
Qed.

Lemma fresh_total s t sn s' : fresh_effect s t sn s' -> (forall a, 0 <= total_of s a <= capacity a) ->
  forall a, total_of s' a = total_of s a + (if (t_asset t =? a)%N then supply_delta t else 0) /\
            0 <= total_of s' a <= capacity a.
Proof.
  intros F B a. destruct (fe_total _ _ _ _ F) as (nt & Hnt & Htot).
  pose proof (new_total_delta _ _ _ (proj1 (B (t_asset t))) Hnt) as Hd. specialize (B a).
  unfold total_of in *. destruct nt as [v|].
  - destruct Htot as [-> Hcap]. rewrite (lookup_set eq1_ok). change (eq1 (t_asset t) a) with (t_asset t =? a)%N.
    destruct (N.eqb_spec (t_asset t) a) as [<-|]; lia.
  - rewrite Htot, Hd. destruct (t_asset t =? a)%N; lia.
Qed.

Lemma fresh_finalized s t sn s' : fresh_effect s t sn s' ->
  forall y, finalized s' y = (t_hash t =? y)%N || finalized s y.
Proof. intros F y. unfold finalized. rewrite (fe_fin _ _ _ _ F). apply (mem_set eq1_ok). Qed.

Lemma finalize_fresh_flow s t sn s' : flow_inv s -> lookup eq1 (s_txs s) (t_hash t) = Some t ->
  finalized s (t_hash t) = false -> finalize_tx s t sn = Ok s' -> flow_inv s'.
Proof.
  intros J Hbody Hfresh H. pose proof (finalize_tx_fresh _ _ _ _ Hfresh H) as F.
  pose proof (fresh_total _ _ _ _ F (j_bound _ J)) as T. pose proof (fe_txs _ _ _ _ F) as Et. constructor.
  - exact (wf_txs_ext _ _ Et (j_wf _ J)).
  - intros y. rewrite (fresh_finalized _ _ _ _ F), Et.
    destruct (N.eqb_spec (t_hash t) y) as [<-|]; [eauto|apply (j_body _ J)].
  - intros a. rewrite (proj1 (T a)), (j_flow _ J), !supply_flow_zsum, Et, (fe_fin _ _ _ _ F).
    rewrite set_absent, zsum_app by exact (not_finalized _ _ Hfresh).
    unfold flow_val at 3. cbn [zsum fold_right fst]. rewrite Hbody. lia.
  - intros a. apply T.
Qed.

Lemma new_body_other s t y : flow_inv s -> lookup eq1 (s_txs s) (t_hash t) = None -> finalized s y = true ->
  lookup eq1 (set eq1 (s_txs s) (t_hash t) t) y = lookup eq1 (s_txs s) y.
Proof.
  intros J Hn Hy. rewrite (lookup_set eq1_ok). destruct (eq1_ok (t_hash t) y) as [<-|]; [|reflexivity].
  destruct (j_body _ J _ Hy) as [t0 E]. congruence.
Qed.

Lemma with_txs_flow s t : flow_inv s -> lookup eq1 (s_txs s) (t_hash t) = None ->
  flow_inv (with_txs s (set eq1 (s_txs s) (t_hash t) t)).
Proof.
  intros J Hn. constructor.
  - exact (with_txs_wf s t (j_wf _ J)).
  - intros y Hy. cbn [s_txs with_txs]. rewrite (new_body_other _ _ _ J Hn Hy). exact (j_body _ J y Hy).
  - intros a. transitivity (supply_flow s a); [exact (j_flow _ J a)|].
    rewrite !supply_flow_zsum. apply zsum_ext. intros [y x] Hin.
    unfold flow_val. cbn [fst s_txs with_txs]. rewrite (new_body_other _ _ _ J Hn); [reflexivity|].
    exact (in_mem eq1_ok _ _ _ Hin).
  - exact (j_bound _ J).
Qed.

Lemma run_flow : forall ops s, flow_inv s -> flow_inv (run s ops).
Proof.
  apply (run_P flow_inv (fun _ => True) (fun _ _ => True) (fun _ _ => True)); auto.
  - intros s s' E. exact (flow_inv_ext _ _ (f_equal fst E)).
  - exact j_wf.
  - intros s t J _. exact (with_txs_flow s t J).
  - intros s ks h s' J _ H. exact (flow_inv_ext _ _ (lock_utxos_txn_core3 _ _ _ _ H) J).
  - intros s t sn s' J Hb Hf _. exact (finalize_fresh_flow s t sn s' J Hb Hf).
Qed.

Section Supply.
  (* the transactions that ever appear; their hashes identify them (C06, collision freedom) *)
  Variable K : list tx.
  Hypothesis Kinj : forall t1 t2, In t1 K -> In t2 K -> t_hash t1 = t_hash t2 -> t1 = t2.

  (* What each field is there for: i_out makes the keys of new outputs fresh
     (a transaction not yet finalized has no output record); i_lock with Kinj gives
     [locked_are_inputs]; i_spent is what stops a spent input from being locked
     again; i_nz because u_lock = 0 means unlocked; i_wf, i_body, i_flow, i_bound
     are [flow_inv]. *)
  Record inv (s : state) : Prop := {
    i_nodup : NoDup (map fst (s_utxo s));
    i_wf : wf_txs s;
    i_known : forall h t, lookup eq1 (s_txs s) h = Some t -> In t K;
    i_lock : forall k u, In (k, u) (s_utxo s) -> u_lock u <> 0%N ->
             exists t, In t K /\ t_hash t = u_lock u /\ In k (ord_inputs (t_inputs t));
    i_out : forall k u, In (k, u) (s_utxo s) -> finalized s (fst k) = true;
    i_body : forall h, finalized s h = true -> exists t, lookup eq1 (s_txs s) h = Some t;
    i_spent : forall h t, finalized s h = true -> lookup eq1 (s_txs s) h = Some t ->
              forall k, In k (ord_inputs (t_inputs t)) ->
              exists u, lookup eq2 (s_utxo s) k = Some u /\ u_lock u = h;
    i_unc : forall a, total_of s a = unconsumed_sum s a;
    i_flow : forall a, total_of s a = supply_flow s a;
    i_bound : forall a, 0 <= total_of s a <= capacity a;
    i_nz : forall h, finalized s h = true -> h <> 0%N
  }.

  Lemma inv_flow s : inv s -> flow_inv s.
  Proof. intros I. constructor; apply I. Qed.

  Lemma inv_ext s s' : core s' = core s -> inv s -> inv s'.
  Proof.
    intros [= E1 E2 E3 E4] H. destruct s, s'. cbn in E1, E2, E3, E4. subst. destruct H. constructor; assumption.
  Qed.

  Lemma inv_empty : inv empty_state.
  Proof.
    constructor; try apply flow_inv_empty; try discriminate; try (intros ? ? []). constructor.
  Qed.

  (* validity facts of one transaction at the moment it is finalized (from C01 / C03).
     The disjuncts of v_shape: ordinary inputs, deposit, mint, genesis.  Only a
     withdrawal submission takes its submit outputs out of the supply
     (supply_delta), so any other ordinary transaction must have none. *)
  Record valid_tx (s : state) (t : tx) : Prop := {
    v_hash : t_hash t <> 0%N;
    v_nodup : NoDup (ord_inputs (t_inputs t));
    v_inputs : forall k, In k (ord_inputs (t_inputs t)) ->
               exists u, lookup eq2 (s_utxo s) k = Some u /\ u_asset u = t_asset t /\ u_lock u = t_hash t;
    v_noslash : forallb (fun o => negb (is_slash o)) (t_outputs t) = true;
    v_shape :
      (type_of_inputs (t_inputs t) = None /\
       zsum (amount_at (s_utxo s)) (ord_inputs (t_inputs t)) = sum_outputs (t_outputs t) /\
       (tx_type t <> TySubmit -> sum_submits (t_outputs t) = 0))
      \/ (exists c k amt, t_inputs t = [IDeposit c k amt] /\ sum_outputs (t_outputs t) = amt /\ sum_submits (t_outputs t) = 0)
      \/ (exists amt, t_inputs t = [IMint amt] /\ sum_outputs (t_outputs t) = amt /\ sum_submits (t_outputs t) = 0)
      \/ (t_inputs t = [IGenesis] /\ sum_submits (t_outputs t) = 0)
  }.

  Lemma valid_tx_special s t i amt : t_hash t <> 0%N -> t_inputs t = [i] ->
    i = IMint amt \/ (exists c k, i = IDeposit c k amt) ->
    sum_outputs (t_outputs t) = amt -> forallb (fun o => negb (is_slash o)) (t_outputs t) = true ->
    (tx_type t <> TySubmit -> sum_submits (t_outputs t) = 0) -> valid_tx s t.
  Proof.
    intros Hh Hi Hc Hs Hn Hsub.
    assert (Hz : sum_submits (t_outputs t) = 0).
    { apply Hsub. unfold tx_type. rewrite Hi. destruct Hc as [->|(c & k & ->)]; discriminate. }
    destruct Hc as [->|(c & k & ->)]; (constructor; try assumption; rewrite Hi; [constructor|intros k0 []|eauto 10]).
  Qed.

  Lemma locked_are_inputs s t : inv s -> In t K -> t_hash t <> 0%N ->
    forall k u, In (k, u) (s_utxo s) -> u_lock u = t_hash t -> In k (ord_inputs (t_inputs t)).
  Proof.
    intros I Ht Hh k u Hin Hl. destruct (i_lock s I k u Hin ltac:(congruence)) as (t' & Ht' & Hh' & Hk).
    rewrite <- (Kinj t' t) by congruence. exact Hk.
  Qed.

  Lemma valid_delta s t a : inv s -> In t K -> valid_tx s t ->
    lsum (t_hash t) a (s_utxo s) + (if (t_asset t =? a)%N then supply_delta t else 0) =
    if (t_asset t =? a)%N then sum_outputs (t_outputs t) - sum_submits (t_outputs t) else 0.
  Proof.
    intros I Ht [Hh Hnd Hin _ Hshape]. pose proof (locked_are_inputs s t I Ht Hh) as Hlocked.
    destruct (N.eqb_spec (t_asset t) a) as [<-|Ha].
    - rewrite (lsum_inputs _ _ _ _ (i_nodup s I) Hnd Hin Hlocked).
      unfold supply_delta, tx_type, is_genesis_tx in *.
      destruct Hshape as [(Hn & Hsum & Hsub)|[(c & k & amt & -> & Hs & Hsub)|[(amt & -> & Hs & Hsub)|(-> & Hsub)]]];
        [|cbn; lia..].
      rewrite Hn in *. rewrite Hsum. clear - Hn Hsub.
      destruct (type_of_outputs (t_outputs t) true); try rewrite Hsub by discriminate;
        destruct (t_inputs t) as [|[] ?]; try discriminate Hn; lia.
    - rewrite Z.add_0_r. apply zsum_zero. intros [k u] Hku. unfold lval. cbn [snd].
      destruct (N.eqb_spec (u_asset u) a) as [Eu|]; [|reflexivity].
      destruct (N.eqb_spec (u_lock u) (t_hash t)) as [El|]; [|reflexivity].
      destruct (Hin k (Hlocked k u Hku El)) as (u' & Hu' & Hasset & _).
      rewrite (in_lookup_nodup eq2_ok _ _ _ (i_nodup s I) Hku) in Hu'. congruence.
  Qed.

  Lemma finalize_fresh_inv : forall s t sn s', inv s -> lookup eq1 (s_txs s) (t_hash t) = Some t ->
    finalized s (t_hash t) = false -> valid_tx s t -> finalize_tx s t sn = Ok s' -> inv s'.
  Proof.
    intros s t sn s' I Hbody Hfresh V H.
    destruct (finalize_fresh_flow s t sn s' (inv_flow s I) Hbody Hfresh H) as [Jw Jb Jf Jd].
    pose proof (finalize_tx_fresh s t sn s' Hfresh H) as F.
    pose proof (fresh_finalized _ _ _ _ F) as Hfin. pose proof (fresh_total _ _ _ _ F (i_bound s I)) as T.
    destruct F as [Et _ _ _ _ _ _ Ef (us & Hus & Eu) _].
    pose proof (i_known s I _ _ Hbody) as HtK. destruct (unspent_from_keys _ _ _ Hus) as [Hnd _].
    assert (Hout : forall k u, lookup eq2 (s_utxo s) k = Some u -> finalized s (fst k) = true).
    { intros k u Hu. exact (i_out s I k u (lookup_in eq2_ok _ _ _ Hu)). }
    assert (Hfree : forall j, lookup eq2 (s_utxo s) (t_hash t, j) = None).
    { intros j. destruct (lookup eq2 _ _) as [u|] eqn:E; [|reflexivity]. apply Hout in E. cbn [fst] in E. congruence. }
    assert (Hold : forall k u, lookup eq2 (s_utxo s) k = Some u -> lookup eq2 (s_utxo s') k = Some u).
    { intros [k1 k2] u Hu. rewrite Eu, put_utxos_other; [exact Hu|]. apply Hout in Hu. cbn [fst] in Hu. congruence. }
    constructor; try assumption.
    - (* i_nodup *) rewrite Eu. apply put_utxos_nodup, (i_nodup s I).
    - (* i_known *) rewrite Et. apply (i_known s I).
    - (* i_lock *) intros k u Hin Hl. rewrite Eu in Hin. apply put_utxos_in in Hin.
      destruct Hin as [Hin|[_ Hz]]; [exact (i_lock s I k u Hin Hl)|contradiction].
    - (* i_out *) intros k u Hin. rewrite Eu in Hin. apply put_utxos_in in Hin. rewrite Hfin.
      destruct Hin as [Hin|[-> _]]; [rewrite (i_out s I k u Hin); apply orb_true_r|rewrite N.eqb_refl; reflexivity].
    - (* i_spent *) intros y ty Hy Hb k Hk. rewrite Et in Hb. rewrite Hfin in Hy.
      destruct (N.eqb_spec (t_hash t) y) as [<-|].
      + rewrite Hbody in Hb. injection Hb as <-. destruct (v_inputs s t V k Hk) as (u & Hu & _ & Hl). eauto.
      + destruct (i_spent s I y ty Hy Hb k Hk) as (u & Hu & Hl). eauto.
    - (* i_unc: the unconsumed sum gains the new outputs (put_utxos_usum) and loses
         the outputs locked by t (usum_finalize); valid_delta equates the difference
         with supply_delta *)
      intros a. rewrite (proj1 (T a)), (i_unc s I a), !unconsumed_sum_usum, Eu, Ef.
      rewrite put_utxos_usum, usum_finalize, (unspent_from_sum _ _ _ Hus (v_noslash s t V)); auto using (v_hash s t V).
      pose proof (valid_delta s t a I HtK V). destruct (t_asset t =? a)%N; lia.
    - (* i_nz *) intros y. rewrite Hfin. destruct (N.eqb_spec (t_hash t) y) as [<-|]; [intros _; exact (v_hash s t V)|apply (i_nz s I)].
  Qed.

  Lemma with_txs_inv s t : inv s -> In t K -> lookup eq1 (s_txs s) (t_hash t) = None ->
    inv (with_txs s (set eq1 (s_txs s) (t_hash t) t)).
  Proof.
    intros I Ht Hn. pose proof (inv_flow s I) as J.
    destruct (with_txs_flow s t J Hn) as [Jw Jb Jf Jd], I as [Ind _ Ikn Ilk Iout _ Isp Iunc _ _ Inz].
    constructor; try assumption.
    - (* i_known *) intros h t0. cbn [s_txs with_txs]. rewrite (lookup_set eq1_ok).
      destruct (eq1 (t_hash t) h); [intros [= <-]; exact Ht|apply Ikn].
    - (* i_spent *) intros y ty Hy Hb. cbn [s_txs with_txs] in Hb. rewrite (new_body_other s t y J Hn Hy) in Hb. exact (Isp y ty Hy Hb).
  Qed.

  Lemma lock_utxo_inv s t k s' : inv s -> In t K -> t_hash t <> 0%N ->
    In k (ord_inputs (t_inputs t)) -> lock_utxo s k (t_hash t) = Ok s' -> inv s'.
  Proof.
    intros I Ht Hnz Hk H. apply lock_utxo_shape in H. destruct H as (u & Hu & Hlock & ->).
    (* were t finalized, i_spent would have its input k locked by t already *)
    assert (Hnf : u_lock u = 0%N -> finalized s (t_hash t) = false).
    { intros Hz. destruct (finalized s (t_hash t)) eqn:Ef; [|reflexivity].
      destruct (i_body s I _ Ef) as (t0 & Hb).
      assert (t0 = t) as -> by (apply Kinj; auto; [exact (i_known s I _ _ Hb)|exact (i_wf s I _ _ Hb)]).
      destruct (i_spent s I _ _ Ef Hb k Hk) as (u0 & Hu0 & Hl0). congruence. }
    destruct I as [Ind Iwf Ikn Ilk Iout Ibody Isp Iunc Ifl Ibd Inz]. constructor; try assumption; cbn [s_utxo with_utxo].
    - (* i_nodup *) exact (set_nodup eq2_ok _ _ _ Ind).
    - (* i_lock *) intros k0 u0 Hin Hl. apply (in_set_cases eq2_ok) in Hin. destruct Hin as [Hin|[= -> ->]]; [exact (Ilk k0 u0 Hin Hl)|exists t; auto].
    - (* i_out *) intros k0 u0 Hin. apply (in_set_cases eq2_ok) in Hin. destruct Hin as [Hin|[= -> _]]; [exact (Iout k0 u0 Hin)|].
      exact (Iout k u (lookup_in eq2_ok _ _ _ Hu)).
    - (* i_spent *) intros y ty Hy Hb k0 Hk0. destruct (Isp y ty Hy Hb k0 Hk0) as (u0 & Hu0 & Hl0).
      rewrite (lookup_set eq2_ok). destruct (eq2_ok k k0) as [<-|]; [|eauto].
      eexists. split; [reflexivity|]. cbn [u_lock with_lock]. pose proof (Inz _ Hy). destruct Hlock; congruence.
    - (* i_unc *) intros a. transitivity (unconsumed_sum s a); [exact (Iunc a)|].
      rewrite !unconsumed_sum_usum. cbn [s_fin s_utxo with_utxo]. unfold usum.
      rewrite (zsum_set_present eq2_ok _ _ _ _ u Hu). cbn [snd].
      enough (uval (s_fin s) a (with_lock u (t_hash t)) = uval (s_fin s) a u) by lia.
      unfold uval. cbn [with_lock u_asset u_lock u_amount]. destruct Hlock as [Hz| ->]; [|reflexivity].
      rewrite Hz. fold (finalized s (t_hash t)). rewrite (Hnf Hz), andb_false_r. reflexivity.
  Qed.

  Lemma lock_utxos_txn_inv ks : forall s t s', inv s -> In t K -> t_hash t <> 0%N ->
    incl ks (ord_inputs (t_inputs t)) -> lock_utxos_txn s ks (t_hash t) = Ok s' -> inv s'.
  Proof.
    induction ks as [|k r IH]; cbn [lock_utxos_txn]; intros s t s' I Ht Hnz Hsub H; [injection H as <-; exact I|].
    apply bind_ok in H as (s1 & H1 & H). apply incl_cons_inv in Hsub. destruct Hsub as [Hk Hr].
    exact (IH s1 t s' (lock_utxo_inv s t k s1 I Ht Hnz Hk H1) Ht Hnz Hr H).
  Qed.

  Fixpoint vmembers (s : state) (sn : snapshot) (hs : list N) : Prop :=
    match hs with
    | [] => True
    | h :: r => (forall t, lookup eq1 (s_txs s) h = Some t -> finalized s h = false -> valid_tx s t)
                /\ (forall s1, finalize_member s sn h = Ok s1 -> vmembers s1 sn r)
    end.

  Fixpoint vgen (s : state) (l : list (snapshot * tx)) : Prop :=
    match l with
    | [] => True
    | (sn, t) :: r =>
        In t K /\
        (let s1 := fst (write_transaction s t) in
         vmembers s1 sn (sn_txs sn) /\
         (forall s2, write_snapshot_core s1 sn = Ok s2 -> vgen (write_work s2 sn []) r))
    end.

  Definition vop (s : state) (o : op) : Prop :=
    match o with
    | OpRound _ _ _ => True
    | OpGhost _ _ => True
    | OpWriteTx t => In t K
    | OpLock ks h => exists t, In t K /\ t_hash t = h /\ h <> 0%N /\ ks = ord_inputs (t_inputs t)
    | OpSnapshot sn _ => vmembers s sn (sn_txs sn)
    | OpGenesis xin l => forall s1, write_asset_info s Consts.Fin_Asset_XIN xin = Ok s1 -> vgen s1 l
    end.

  Inductive validated_history : state -> list op -> Prop :=
  | VH_nil : forall s, validated_history s []
  | VH_cons : forall s o r, vop s o -> validated_history (fst (step s o)) r -> validated_history s (o :: r).

  Lemma step_inv s o : inv s -> vop s o -> inv (fst (step s o)).
  Proof.
    (* vmembers, vgen and vop unfold to members, gen and opok at these side conditions *)
    apply (step_P inv (fun t => In t K) valid_tx
             (fun ks h => exists t, In t K /\ t_hash t = h /\ h <> 0%N /\ ks = ord_inputs (t_inputs t))).
    - exact inv_ext.
    - exact i_wf.
    - exact with_txs_inv.
    - intros s0 ks h s' I (t & Ht & <- & Hnz & ->). exact (lock_utxos_txn_inv _ s0 t s' I Ht Hnz (incl_refl _)).
    - exact finalize_fresh_inv.
  Qed.

  Lemma run_inv ops : forall s, inv s -> validated_history s ops -> inv (run s ops).
  Proof.
    induction ops as [|o r IH]; intros s I V; [exact I|]. inversion_clear V as [|? ? ? Vo Vr].
    exact (IH _ (step_inv s o I Vo) Vr).
  Qed.

  Lemma supply_theorem : forall ops, validated_history empty_state ops ->
    forall a, let s := run empty_state ops in
      total_of s a = supply_flow s a /\ total_of s a = unconsumed_sum s a /\ 0 <= total_of s a <= capacity a.
  Proof.
    intros ops V a s. pose proof (run_inv ops empty_state inv_empty V) as I.
    exact (conj (i_flow _ I a) (conj (i_unc _ I a) (i_bound _ I a))).
  Qed.
End Supply.
