(* The node operations recorded on the consensus chain of C28
   (Model/KernelSnap.v) carry strictly increasing timestamps, which is the
   schedule hypothesis of the membership lifecycle of C27 (Model/NodeState.v). *)
From Coq Require Import List ZArith NArith Bool Lia ZifyN.
Require Import Mixin.Base.Res Mixin.Model.KernelSnap.
Require Mixin.Proofs.KernelSnap.
Require Import Mixin.Model.NodeState Mixin.Proofs.NodeState Mixin.Proofs.Lists.
Import ListNotations.

(* A consensus record holds the hash of its sole transaction and the timestamp
   of its snapshot - the very timestamp finalizeTransaction hands to
   writeNodePledge/Accept/Cancel/Remove.  Whether that transaction is a
   membership operation, and with which keys, is in the TRANSACTION body the
   hash points to; it is a parameter here:
     [body t = Some (kind, signer, payee)]  t is a node pledge/accept/cancel/remove
     [body t = None]                        t is a mint or a custodian transaction. *)
Definition body_t := N -> option (okind * N * N).

Definition op_of_rec (body : body_t) (r : crec) : option op :=
  match cr_txs r with
  | [t] =>
      match body t with
      | Some (k, s, p) => Some (mk_op k s p t (Z.to_N (cr_ts r)) false)
      | None => None
      end
  | _ => None
  end.

Fixpoint project (body : body_t) (l : list crec) : list op :=
  match l with
  | [] => []
  | r :: t =>
      match op_of_rec body r with
      | Some o => o :: project body t
      | None => project body t
      end
  end.

Lemma op_of_rec_spec body r o :
  op_of_rec body r = Some o ->
  cr_txs r = [o_tx o] /\ o_ts o = Z.to_N (cr_ts r) /\ o_genesis o = false /\
  body (o_tx o) = Some (o_kind o, o_signer o, o_payee o).
Proof.
  unfold op_of_rec. destruct (cr_txs r) as [|t [|x xs]]; try discriminate.
  destruct (body t) as [[[k s] p]|] eqn:E; [|discriminate].
  intros H. inversion H; subst. cbn. rewrite E. repeat split.
Qed.

Fixpoint inc_from (t : Z) (l : list crec) : Prop :=
  match l with
  | [] => True
  | r :: l' => (t < cr_ts r)%Z /\ inc_from (cr_ts r) l'
  end.

Lemma chain_inc : forall rest g, chain (g :: rest) -> inc_from (cr_ts g) rest.
Proof.
  induction rest as [|r rest IH]; intros g H; [exact I|].
  inversion H as [|? ? ? Hl Hc]; subst. exact (conj (Mixin.Proofs.KernelSnap.link_ts _ _ Hl) (IH r Hc)).
Qed.

Lemma increasing_weaken ops : forall t t', (t <= t')%N -> increasing_from t' ops -> increasing_from t ops.
Proof.
  destruct ops as [|o ops]; intros t t' Hle H; [exact I|].
  destruct H as (H1 & H2 & H3 & H4). repeat split; try assumption. lia.
Qed.

Definition in_range (r : crec) : Prop :=
  (cr_ts r + Z.of_N max_period < Z.of_N NodeState.two64)%Z.

Lemma project_increasing body : forall l t,
  (0 <= t)%Z -> inc_from t l -> Forall in_range l ->
  increasing_from (Z.to_N t) (project body l).
Proof.
  induction l as [|r l IH]; intros t Ht Hinc Hr; [exact I|].
  destruct Hinc as [Hlt Hinc]. inversion_clear Hr as [|? ? Hr1 Hr'].
  assert (IH' : increasing_from (Z.to_N (cr_ts r)) (project body l)) by (apply IH; [lia|exact Hinc|exact Hr']).
  cbn [project]. destruct (op_of_rec body r) as [o|] eqn:E.
  - destruct (op_of_rec_spec _ _ _ E) as (_ & Hts & Hg & _). cbn [increasing_from]. rewrite Hts.
    split; [exact Hg|]. split; [lia|]. split; [|exact IH'].
    (* lia must not see into the two constants *)
    unfold in_range in Hr1. clear -Hr1 Ht Hlt. revert Hr1. generalize max_period, NodeState.two64. lia.
  - (* a record that is no membership operation is skipped: it only raises the bound *)
    apply (increasing_weaken _ _ (Z.to_N (cr_ts r))); [lia|exact IH'].
Qed.

Theorem chain_projection_increasing body g rest :
  chain (g :: rest) -> (0 <= cr_ts g)%Z -> Forall in_range rest ->
  increasing_from (Z.to_N (cr_ts g)) (project body rest).
Proof.
  intros Hc H0 Hr. apply project_increasing; [exact H0|apply chain_inc; exact Hc|exact Hr].
Qed.

(* g is the record of the genesis consensus snapshot, gs are the genesis nodes *)
Theorem lifecycle_over_chain body gs g rest pre o post :
  chain (g :: rest) -> (0 <= cr_ts g)%Z -> Forall in_range rest ->
  genesis_ok (Z.to_N (cr_ts g)) gs ->
  project body rest = pre ++ o :: post ->
  lifecycle_at (run (gs ++ pre)) o.
Proof.
  intros Hc H0 Hr Hg Hp. apply (lifecycle_thm (Z.to_N (cr_ts g)) gs pre o post Hg).
  rewrite <- Hp. apply chain_projection_increasing; assumption.
Qed.

Theorem reported_over_chain body gs g rest th :
  chain (g :: rest) -> (0 <= cr_ts g)%Z -> Forall in_range rest ->
  genesis_ok (Z.to_N (cr_ts g)) gs ->
  (last_ts (Z.to_N (cr_ts g)) (project body rest) <= th)%N ->
  reported (run (gs ++ project body rest)) th.
Proof.
  intros Hc H0 Hr Hg. apply (reported_thm _ gs _ th Hg), chain_projection_increasing; assumption.
Qed.

Definition first_ts (h : list crec) : option Z := option_map cr_ts (hd_error h).

Lemma cset_first r h t : first_ts h = Some t -> first_ts (cset r h) = Some t.
Proof.
  destruct h as [|x l]; [discriminate|]. cbn. unfold key_eq.
  destruct (Z.eqb_spec (cr_ts x) (cr_ts r)) as [E|]; [destruct (_ =? _)%N|]; cbn; rewrite <- ?E; auto.
Qed.

Lemma write_first h o h' t :
  write_consensus_snapshot h o = Ok h' -> first_ts h = Some t -> first_ts h' = Some t.
Proof.
  intros H F.
  destruct (Mixin.Proofs.KernelSnap.write_inv _ _ _ H)
    as (_ & [(_ & ->)|(_ & last & tl & _ & _ & _ & [->|(_ & _ & ->)])]);
    [apply cset_first| |do 2 apply cset_first]; exact F.
Qed.

Lemma writes_first cops h t :
  first_ts h = Some t -> first_ts (fold_left apply_cop cops h) = Some t.
Proof.
  apply (fold_left_inv (fun h => first_ts h = Some t)). intros a o _ Fa. unfold apply_cop.
  destruct (write_consensus_snapshot a o) eqn:E; [exact (write_first _ _ _ _ E Fa)|exact Fa..].
Qed.

Theorem lifecycle_over_consensus_writes body gs g cops :
  chain [g] -> Forall (fun c => co_genesis c = false) cops ->
  exists g' rest,
    fold_left apply_cop cops [g] = g' :: rest /\ cr_ts g' = cr_ts g /\ chain (g' :: rest) /\
    ((0 <= cr_ts g)%Z -> Forall in_range rest -> genesis_ok (Z.to_N (cr_ts g)) gs ->
     forall pre o post, project body rest = pre ++ o :: post -> lifecycle_at (run (gs ++ pre)) o).
Proof.
  intros Hc Hf. pose proof (writes_first cops [g] _ eq_refl) as F.
  pose proof (Mixin.Proofs.KernelSnap.c28_single_chain cops [g] Hc Hf) as Hc'.
  destruct (fold_left apply_cop cops [g]) as [|g' rest]; [discriminate F|]. injection F as Hts.
  exists g', rest. do 3 (split; [assumption || reflexivity|]).
  intros H0 Hr Hg pre o post Hp. rewrite <- Hts in H0, Hg.
  exact (lifecycle_over_chain body gs g' rest pre o post Hc' H0 Hr Hg Hp).
Qed.
