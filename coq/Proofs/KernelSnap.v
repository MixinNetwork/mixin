(* C28: the batch and reference rules; consensus writes keep the store a [chain].
   C16: a batch finalizes given the per-member facts [ready] and a [budget] on the
   totals; an accepting validation establishes [ready]. *)
From Coq Require Import List ZArith NArith Bool Lia ZifyN ZifyNat ZifyBool.
Require Import Mixin.Base.Res Mixin.Gen.Consts Mixin.Model.Fixed Mixin.Model.KernelSnap Mixin.Proofs.Fixed
  Mixin.Proofs.Res Mixin.Proofs.Lists.
Import ListNotations.
Open Scope Z_scope.

(* Witnesses of the two findings recorded for C16 (Props/C16.v): batches that
   validate member by member and then fail to finalize. *)
Definition xin := Consts.KsAssetXIN.
Definition units (x : Z) : Z := x * 10 ^ 8.

Definition w_deposit (h key : N) (asset info : N) (amt : Z) (ghost : N) : ltx :=
  {| l_hash := h; l_asset := asset; l_in := LDeposit key info amt;
     l_outs := [{| o_type := OScript; o_amt := amt; o_keys := [ghost] |}];
     l_refs := []; l_sig := true |}.

(* on the genesis supply of 94773 XIN either deposit of 330000 XIN fits KsCapXIN
   (750000 XIN), the two together do not *)
Definition w_state := genesis_state 7%N (units 94773).
Definition w_d1 := w_deposit 101 201 xin 7 (units 330000) 301.
Definition w_d2 := w_deposit 102 202 xin 7 (units 330000) 302.
Definition w_snap := {| ls_hash := 900%N; ls_txs := [101%N; 102%N] |}.
Definition w_pool := [(101%N, w_d1); (102%N, w_d2)].
Definition w_last := {| cs_txs := [1%N]; cs_ts := 0 |}.

(* two deposits of the unrecorded asset BTC carrying different asset info *)
Definition btc := Consts.KsAssetBTC.
Definition w_e1 := w_deposit 111 211 btc 8 (units 1) 311.
Definition w_e2 := w_deposit 112 212 btc 9 (units 2) 312.
Definition w_snap2 := {| ls_hash := 901%N; ls_txs := [111%N; 112%N] |}.
Definition w_pool2 := [(111%N, w_e1); (112%N, w_e2)].

Lemma c28_batch : forall mainnet s found fin last tok,
  validate_kernel_snapshot mainnet s found fin last tok = Ok tt ->
  (1 < length (ks_txs s))%nat ->
  forall h t, In (h, t) found -> is_batchable (k_type t) = true.
Proof.
  intros mainnet s found fin last tok Hv Hlen h t Hin. unfold validate_kernel_snapshot in Hv.
  destruct (1 <? Z.of_nat (length (ks_txs s))) eqn:E; [|lia].
  destruct (forallb _ found) eqn:F; [|discriminate].
  rewrite forallb_forall in F. apply (F (h, t) Hin).
Qed.

Lemma refs_linked : forall s tx last,
  validate_consensus_refs s tx last = Ok tt ->
  is_consensus_class (k_type tx) = true ->
  exists ltx, cs_txs last = [ltx] /\
    (ltx = k_hash tx \/ (hd_error (k_refs tx) = Some ltx /\ cs_ts last < ks_ts s)).
Proof.
  intros s tx last Hv Hc. unfold validate_consensus_refs in Hv.
  destruct (1 <? Z.of_nat (length (ks_txs s))); [discriminate|].
  rewrite Hc in Hv. cbn [negb] in Hv.
  destruct (k_refs tx) as [|r0 rs]; [discriminate|].
  destruct (1 <? Z.of_nat (length (cs_txs last))) eqn:El; [discriminate|].
  destruct (cs_txs last) as [|ltx [|]]; [discriminate| |cbn [length] in El; lia].
  exists ltx. split; [reflexivity|].
  destruct (N.eqb_spec ltx (k_hash tx)) as [Eh|_]; [left; exact Eh|].
  destruct (N.eqb_spec r0 ltx) as [->|_]; cbn [negb] in Hv; [|discriminate Hv].
  destruct (Z.leb_spec (ks_ts s) (cs_ts last)) as [|Ets]; [discriminate|].
  right. split; [reflexivity|exact Ets].
Qed.

Lemma c28_members_batchable : forall mainnet s fin last tok ms found,
  snapshot_tx_rules mainnet s fin last tok found ms = Ok tt ->
  (1 < length (ks_txs s))%nat ->
  forall m, In m ms -> is_batchable (k_type (m_tx m)) = true.
Proof.
  intros mainnet s fin last tok. induction ms as [|m r IH]; intros found H L x Hx; [destruct Hx|].
  cbn [snapshot_tx_rules] in H. destruct (negb _ && _); [discriminate|].
  apply bind_ok in H. destruct H as ([] & V & H).
  destruct Hx as [<-|Hx]; [|exact (IH _ H L x Hx)].
  exact (c28_batch _ _ _ _ _ _ V L _ _ (or_introl eq_refl)).
Qed.

Lemma link_ts : forall a b, link a b -> cr_ts a < cr_ts b.
Proof. intros a b (t1 & t2 & _ & _ & _ & _ & Hlt). exact Hlt. Qed.

Lemma chain_inv : forall a b l, chain (a :: b :: l) -> link a b /\ chain (b :: l).
Proof. intros a b l H. inversion H; subst. split; assumption. Qed.

Lemma chain_end : forall h, chain h -> exists pre lst t,
  h = pre ++ [lst] /\ cr_txs lst = [t] /\ cr_next lst = None /\
  Forall (fun r => cr_ts r < cr_ts lst) pre.
Proof.
  induction 1 as [r t Ht Hn | r1 r2 l Hlt%link_ts _ (pre & lst & t & E & Ht & Hn & F)].
  - exists [], r, t. repeat split; assumption || constructor.
  - exists (r1 :: pre), lst, t. rewrite E. repeat split; try assumption.
    constructor; [|exact F]. destruct F; injection E as <- _; lia.
Qed.

Lemma read_last_snoc : forall pre lst,
  Forall (fun r => cr_ts r < cr_ts lst) pre -> read_last (pre ++ [lst]) = Some lst.
Proof.
  intros pre lst F. induction F as [|a pre Ha F IH]; [reflexivity|].
  cbn [app read_last]. rewrite IH. unfold key_lt.
  replace (cr_ts lst <? cr_ts a) with false by lia. replace (cr_ts lst =? cr_ts a) with false by lia.
  reflexivity.
Qed.

Lemma cset_app : forall r pre tl,
  Forall (fun x => cr_ts x < cr_ts r) pre -> cset r (pre ++ tl) = pre ++ cset r tl.
Proof.
  intros r pre tl F. induction F as [|x pre Hx F IH]; [reflexivity|].
  cbn [cset app]. unfold key_eq. replace (cr_ts x =? cr_ts r) with false by lia.
  cbn [andb]. rewrite IH. reflexivity.
Qed.

Lemma chain_snoc : forall pre lst lst' new,
  chain (pre ++ [lst]) ->
  cr_ts lst' = cr_ts lst -> cr_txs lst' = cr_txs lst -> cr_ref lst' = cr_ref lst ->
  chain [lst'; new] -> chain (pre ++ [lst'; new]).
Proof.
  induction pre as [|a pre IH]; intros lst lst' new H Ets Etx Eref Hn; [exact Hn|].
  specialize (IH lst lst' new). destruct pre as [|b pre]; cbn [app] in *; apply chain_inv in H.
  - apply chain_cons; [|exact Hn]. destruct H as [(t1 & t2 & A) _].
    exists t1, t2. rewrite Etx, Eref, Ets. exact A.
  - apply chain_cons; [apply H|apply IH; tauto].
Qed.

Lemma chainb_sound : forall l, chainb l = true -> chain l.
Proof.
  induction l as [|r tl IH]; intros H; [discriminate|].
  cbn [chainb] in H. destruct tl as [|r2 tl'].
  - destruct (cr_txs r) as [|t [|]] eqn:Et; try discriminate.
    destruct (cr_next r) eqn:En; [discriminate|]. exact (chain_one r t Et En).
  - apply andb_prop in H as [L C]. apply chain_cons; [|apply IH; exact C].
    unfold linkb in L.
    destruct (cr_txs r) as [|t1 [|]] eqn:E1; try discriminate.
    destruct (cr_txs r2) as [|t2 [|]] eqn:E2; try discriminate.
    destruct (cr_next r) as [n|] eqn:E3; try discriminate.
    destruct (cr_ref r2) as [p|] eqn:E4; try discriminate.
    assert (n = t2 /\ p = t1 /\ cr_ts r < cr_ts r2) as (-> & -> & Hlt) by lia.
    exists t1, t2. repeat split; assumption.
Qed.

Definition fresh_rec (o : cop) : crec :=
  {| cr_ts := co_ts o; cr_snap := co_snap o; cr_txs := co_txs o;
     cr_ref := hd_error (co_refs o); cr_next := None |}.
Definition with_next (r : crec) (t : N) : crec :=
  {| cr_ts := cr_ts r; cr_snap := cr_snap r; cr_txs := cr_txs r; cr_ref := cr_ref r; cr_next := Some t |}.

Lemma write_inv : forall h o h', write_consensus_snapshot h o = Ok h' ->
  co_txs o = [co_tx o] /\
  (co_genesis o = true /\ h' = cset (fresh_rec o) h \/
   co_genesis o = false /\ exists last tl,
     read_last h = Some last /\ cr_next last = None /\ cr_txs last = [tl] /\
     (h' = h \/
      hd_error (co_refs o) = Some tl /\ cr_ts last < co_ts o /\
      h' = cset (fresh_rec o) (cset (with_next last (co_tx o)) h))).
Proof.
  intros h o h' H. unfold write_consensus_snapshot in H. fold (fresh_rec o) in H.
  destruct (co_txs o) as [|sole [|]]; try discriminate.
  destruct (N.eqb_spec sole (co_tx o)) as [Es|]; [subst sole|discriminate]. cbn [negb] in H.
  destruct (negb (co_mint o) && _); [discriminate|]. split; [reflexivity|].
  destruct (co_genesis o); [left; injection H as <-; split; reflexivity|right; split; [reflexivity|]].
  destruct (read_last h) as [last|]; [|discriminate].
  destruct (cr_next last) eqn:En; [discriminate|].
  destruct (cr_txs last) as [|tl [|]] eqn:Et; try discriminate.
  exists last, tl. do 3 (split; [assumption || reflexivity|]).
  destruct (tl =? co_tx o)%N; [left; injection H as <-; reflexivity|right].
  destruct (co_refs o) as [|r0 rs]; [discriminate|].
  destruct (N.eqb_spec tl r0) as [<-|]; [|discriminate].
  destruct (co_ts o <=? cr_ts last) eqn:El; [discriminate|].
  injection H as <-. unfold with_next. rewrite Et. repeat split. lia.
Qed.

Lemma write_on_chain : forall h o h',
  chain h -> co_genesis o = false -> write_consensus_snapshot h o = Ok h' ->
  h' = h \/
  exists pre lst tl, h = pre ++ [lst] /\ cr_txs lst = [tl] /\ hd_error (co_refs o) = Some tl /\
    cr_ts lst < co_ts o /\ co_txs o = [co_tx o] /\
    h' = pre ++ [with_next lst (co_tx o); fresh_rec o].
Proof.
  intros h o h' Hc Hg H.
  destruct (write_inv _ _ _ H) as (Etx & [(E & _)|(_ & last & tl & Hl & _ & Ht & [->|(Hr & Hlt & ->)])]);
    [congruence|left; reflexivity|right].
  destruct (chain_end _ Hc) as (pre & lst & t & -> & _ & _ & F).
  rewrite (read_last_snoc _ _ F) in Hl. injection Hl as <-.
  exists pre, lst, tl. do 5 (split; [assumption || reflexivity|]).
  rewrite (cset_app _ pre [lst]) by exact F. cbn [cset]. unfold key_eq at 1. cbn [cr_ts cr_snap with_next].
  rewrite Z.eqb_refl, N.eqb_refl. cbn [andb].
  rewrite cset_app by (eapply Forall_impl; [|exact F]; cbn; lia).
  cbn [cset]. unfold key_eq. cbn [cr_ts with_next fresh_rec].
  replace (cr_ts lst =? co_ts o) with false by lia. reflexivity.
Qed.

Lemma step_chain : forall h o, chain h -> co_genesis o = false -> chain (apply_cop h o).
Proof.
  intros h o H Hg. unfold apply_cop.
  destruct (write_consensus_snapshot h o) as [h'| |] eqn:W; try exact H.
  destruct (write_on_chain _ _ _ H Hg W) as [->|(pre & lst & tl & -> & Htl & Hr & Hlt & Etx & ->)]; [exact H|].
  apply (chain_snoc pre lst); try reflexivity; [exact H|].
  apply chain_cons; [|exact (chain_one (fresh_rec o) _ Etx eq_refl)].
  exists tl, (co_tx o). repeat split; assumption.
Qed.

Lemma c28_single_chain : forall ops h,
  chain h -> Forall (fun o => co_genesis o = false) ops -> chain (fold_left apply_cop ops h).
Proof.
  intros ops h H F. apply (fold_left_inv chain); [|exact H].
  intros a o Ho Ha. rewrite Forall_forall in F. exact (step_chain a o Ha (F o Ho)).
Qed.

Fixpoint submit_sum (outs : list lout) : Z :=
  match outs with
  | [] => 0
  | o :: r => (if o_type o =? OWithdrawalSubmit then o_amt o else 0) + submit_sum r
  end.
(* what one member adds to / takes from the recorded total of asset [a] *)
Definition adds (t : ltx) (a : N) : Z :=
  if (l_asset t =? a)%N then
    match l_in t with LDeposit _ _ d => d | LMint _ m => m | LUtxos _ => 0 end
  else 0.
Definition subs (t : ltx) (a : N) : Z :=
  if (l_asset t =? a)%N then
    match l_in t with
    | LUtxos _ => if l_type t =? TWithdrawalSubmit then submit_sum (l_outs t) else 0
    | _ => 0
    end
  else 0.
Definition sum_adds (ts : list ltx) (a : N) : Z := fold_right (fun t acc => adds t a + acc) 0 ts.
Definition sum_subs (ts : list ltx) (a : N) : Z := fold_right (fun t acc => subs t a + acc) 0 ts.

Definition deposit_info (t : ltx) : option N :=
  match l_in t with LDeposit _ i _ => Some i | _ => None end.

(* the hypothesis that excludes the second finding (w_e1, w_e2) *)
Definition infos_agree (ts : list ltx) : Prop :=
  forall t1 t2 i1 i2, In t1 ts -> In t2 ts -> l_asset t1 = l_asset t2 ->
    deposit_info t1 = Some i1 -> deposit_info t2 = Some i2 -> i1 = i2.

(* the facts validation establishes about one member, in the state the
   snapshot is written on *)
Record ready (s : lstate) (t : ltx) : Prop := {
  rd_ghost : forall k, In k (all_keys (l_outs t)) -> alookup k (st_ghosts s) = Some (l_hash t);
  rd_outs : forall o, In o (l_outs t) ->
      0 < o_amt o /\ (o_type o = OScript \/ o_type o = OWithdrawalSubmit \/ o_type o = OWithdrawalClaim);
  rd_count : Z.of_nat (length (l_outs t)) <= Consts.KsSliceCountLimit;
  rd_claim : (exists o, In o (l_outs t) /\ o_type o = OWithdrawalClaim) ->
      exists r rs, l_refs t = r :: rs /\ amem r (st_bodies s) = true /\ amem r (st_finals s) = true;
  rd_info : match l_in t with
            | LDeposit _ i d => 0 < d /\ (alookup (l_asset t) (st_infos s) = None
                                          \/ alookup (l_asset t) (st_infos s) = Some i)
            | LMint _ m => 0 < m /\ alookup (l_asset t) (st_infos s) <> None
            | LUtxos _ => alookup (l_asset t) (st_infos s) <> None
            end
}.

Lemma submit_sum_nonneg : forall outs, (forall o, In o outs -> 0 < o_amt o) -> 0 <= submit_sum outs.
Proof.
  induction outs as [|o r IH]; intros H; cbn [submit_sum]; [lia|].
  pose proof (H o (or_introl eq_refl)). pose proof (IH (fun x Hx => H x (or_intror Hx))).
  destruct (o_type o =? OWithdrawalSubmit); lia.
Qed.

Lemma adds_subs_nonneg : forall s t a, ready s t -> 0 <= adds t a /\ 0 <= subs t a.
Proof.
  intros s t a R. unfold adds, subs. pose proof (rd_info _ _ R) as I.
  pose proof (submit_sum_nonneg _ (fun o Ho => proj1 (rd_outs _ _ R o Ho))).
  destruct (l_asset t =? a)%N, (l_in t), (l_type t =? TWithdrawalSubmit); lia.
Qed.

Lemma type_of_outputs_cases : forall outs b,
  type_of_outputs outs b <> TDeposit /\ type_of_outputs outs b <> TMint /\
  (type_of_outputs outs b = TScript -> b = true /\ forall o, In o outs -> o = OScript).
Proof.
  induction outs as [|o r IH]; intros b; cbn [type_of_outputs].
  - destruct b; repeat split; discriminate || contradiction.
  - repeat match goal with |- context [if ?c then _ else _] => destruct c; [repeat split; discriminate|] end.
    destruct (IH (b && (o =? OScript))) as (A & B & C). split; [exact A|]. split; [exact B|].
    intros E. destruct (C E) as [Hb F]. split; [lia|]. intros x [<-|Hx]; [lia|exact (F x Hx)].
Qed.

Lemma l_type_cases : forall t,
  match l_in t with
  | LDeposit _ _ _ => l_type t = TDeposit
  | LMint _ _ => l_type t = TMint
  | LUtxos _ => l_type t <> TDeposit /\ l_type t <> TMint /\
                (l_type t = TScript -> forall o, In o (l_outs t) -> o_type o = OScript)
  end.
Proof.
  intros t. unfold l_type, l_kinds, tx_type. destruct (l_in t) as [k i d|b m|ins]; try reflexivity.
  replace (type_of_inputs (map (fun _ => IKUtxo) ins)) with (@None Z) by (induction ins; auto).
  destruct (type_of_outputs_cases (map o_type (l_outs t)) true) as (A & B & C).
  repeat split; try assumption. intros E o Ho. apply (C E). apply in_map. exact Ho.
Qed.

Lemma alookup_aset_eq : forall {V} k (v : V) l, alookup k (aset k v l) = Some v.
Proof. intros. unfold aset. cbn. rewrite N.eqb_refl. reflexivity. Qed.
Lemma alookup_aset_neq : forall {V} k k' (v : V) l, k <> k' -> alookup k (aset k' v l) = alookup k l.
Proof. intros V k k' v l H. unfold aset. cbn. destruct (N.eqb_spec k k'); [contradiction|reflexivity]. Qed.
Lemma amem_aset_mono : forall {V} r k (v : V) l, amem r l = true -> amem r (aset k v l) = true.
Proof. intros V r k v l H. unfold amem, aset in *. cbn. destruct (r =? k)%N; [reflexivity|exact H]. Qed.
Lemma amem_iff : forall {V} k (l : list (N * V)), amem k l = true <-> exists v, alookup k l = Some v.
Proof.
  intros V k l. unfold amem.
  destruct (alookup k l) as [v|]; split; [eauto|reflexivity|discriminate|intros [v H]; discriminate H].
Qed.

Lemma lock_ghosts_noop : forall keys s h,
  (forall k, In k keys -> alookup k (st_ghosts s) = Some h) -> lock_ghosts s h keys = Ok s.
Proof.
  induction keys as [|k r IH]; intros s h H; [reflexivity|].
  cbn [lock_ghosts]. rewrite (H k (or_introl eq_refl)), N.eqb_refl.
  exact (IH s h (fun x Hx => H x (or_intror Hx))).
Qed.

(* the output types finalization of a batchable transaction or a mint handles *)
Definition out_fine (o : lout) : Prop :=
  o_type o = OScript \/ o_type o = OWithdrawalSubmit \/ o_type o = OWithdrawalClaim.

Lemma set_utxos_eta : forall s, set_utxos s (st_utxos s) = s.
Proof. destruct s; reflexivity. Qed.
Lemma set_totals_eta : forall s, set_totals s (st_totals s) = s.
Proof. destruct s; reflexivity. Qed.

(* with every key bound at validation, writeUTXO touches the UTXO table only;
   the bound on i is graphUtxoKey's, which panics on an index above KsInputIndexLimit *)
Lemma write_utxos_ok : forall outs s t i,
  (forall k, In k (all_keys outs) -> alookup k (st_ghosts s) = Some (l_hash t)) ->
  (forall o, In o outs -> out_fine o) ->
  i + Z.of_nat (length outs) <= Consts.KsInputIndexLimit + 1 ->
  ((exists o, In o outs /\ o_type o = OWithdrawalClaim) ->
     exists r rs, l_refs t = r :: rs /\ amem r (st_bodies s) = true /\ amem r (st_finals s) = true) ->
  exists u, write_utxos s t i outs = Ok (set_utxos s u).
Proof.
  induction outs as [|o r IH]; intros s t i Hg Ht Hi Hc.
  - exists (st_utxos s). rewrite set_utxos_eta. reflexivity.
  - cbn [write_utxos]. cbn [length] in Hi. cbn [all_keys] in Hg.
    assert (Hr : forall u1, exists u, write_utxos (set_utxos s u1) t (i + 1) r = Ok (set_utxos s u)).
    { intros u1. apply (IH (set_utxos s u1)); [| |lia|].
      - intros k Hk. apply Hg. apply in_or_app. right. exact Hk.
      - intros x Hx. apply Ht. right. exact Hx.
      - intros (x & Hx & Ex). apply Hc. exists x. split; [right; exact Hx|exact Ex]. }
    unfold write_utxo. rewrite lock_ghosts_noop by (intros k Hk; apply Hg, in_or_app; left; exact Hk).
    cbn [bind]. replace (Consts.KsInputIndexLimit <? i) with false by lia.
    destruct (Ht o (or_introl eq_refl)) as [E|[E|E]]; rewrite E.
    + apply Hr.
    + destruct (Hr (st_utxos s)) as [u Hu]. rewrite set_utxos_eta in Hu. exists u. exact Hu.
    + destruct Hc as (rr & rs & E1 & E2 & E3); [exists o; split; [left; reflexivity|exact E]|].
      rewrite E1. unfold uset. cbn [st_bodies st_finals set_utxos]. rewrite E2, E3. apply Hr.
Qed.

Lemma sub_submits_ok : forall outs total,
  (forall o, In o outs -> 0 < o_amt o) -> submit_sum outs <= total ->
  sub_submits total outs = Ok (total - submit_sum outs).
Proof.
  induction outs as [|o r IH]; intros total Hp Hs; cbn [sub_submits submit_sum] in *; [f_equal; lia|].
  pose proof (Hp o (or_introl eq_refl)). pose proof (fun x Hx => Hp x (or_intror Hx)) as Hr.
  pose proof (submit_sum_nonneg r Hr).
  destruct (o_type o =? OWithdrawalSubmit); [rewrite i_sub_ok by lia; cbn [bind]|];
    (rewrite IH; [f_equal; lia|exact Hr|lia]).
Qed.

(* the capacity check and the store that end write_total (writeTotalInAsset) *)
Lemma set_total_ok : forall s t total',
  total' = total_of s (l_asset t) + adds t (l_asset t) - subs t (l_asset t) ->
  total' <= capacity (l_asset t) ->
  exists v,
    (if capacity (l_asset t) <? total' then Panic
     else Ok (set_totals s (aset (l_asset t) total' (st_totals s)))) = Ok (set_totals s v) /\
    forall a, total_of (set_totals s v) a = total_of s a + adds t a - subs t a.
Proof.
  intros s t total' E Hc. replace (capacity (l_asset t) <? total') with false by lia.
  eexists. split; [reflexivity|]. intros a. unfold total_of at 1. cbn [st_totals set_totals aset alookup].
  destruct (N.eqb_spec a (l_asset t)) as [->|Ne]; [exact E|].
  unfold adds, subs. replace (l_asset t =? a)%N with false by lia. fold (total_of s a). lia.
Qed.

Lemma write_total_ok : forall s t,
  alookup (l_asset t) (st_infos s) <> None ->
  (forall o, In o (l_outs t) -> 0 < o_amt o) ->
  match l_in t with LDeposit _ _ d => 0 < d | LMint _ m => 0 < m | LUtxos _ => True end ->
  0 <= total_of s (l_asset t) ->
  total_of s (l_asset t) + adds t (l_asset t) <= capacity (l_asset t) ->
  subs t (l_asset t) <= total_of s (l_asset t) ->
  exists v, write_total s t = Ok (set_totals s v) /\
    forall a, total_of (set_totals s v) a = total_of s a + adds t a - subs t a.
Proof.
  intros s t Hi Hp Hpos H0 Hcap Hsub. unfold write_total.
  destruct (alookup (l_asset t) (st_infos s)); [clear Hi|contradiction].
  pose proof (l_type_cases t) as TC. pose proof (submit_sum_nonneg _ Hp) as Hss.
  assert (Ea : adds t (l_asset t) = match l_in t with LDeposit _ _ d => d | LMint _ m => m | LUtxos _ => 0 end)
    by (unfold adds; rewrite N.eqb_refl; reflexivity).
  assert (Es : subs t (l_asset t) = match l_in t with
     | LUtxos _ => if l_type t =? TWithdrawalSubmit then submit_sum (l_outs t) else 0 | _ => 0 end)
    by (unfold subs; rewrite N.eqb_refl; reflexivity).
  destruct (l_in t) as [k i d|b m|ins].
  1,2: rewrite TC; simpl (_ =? _); cbv iota; rewrite i_add_ok by lia; apply set_total_ok; lia.
  destruct TC as (T1 & T2 & _). destruct (l_type t =? TWithdrawalSubmit).
  - rewrite sub_submits_ok by (exact Hp || lia). apply set_total_ok; lia.
  - replace (l_type t =? TDeposit) with false by lia. replace (l_type t =? TMint) with false by lia.
    exists (st_totals s). rewrite set_totals_eta. split; [reflexivity|]. intros a.
    destruct (N.eq_dec (l_asset t) a) as [<-|Ne]; [lia|]. unfold adds, subs.
    replace (l_asset t =? a)%N with false by lia. lia.
Qed.

Lemma ready_mono : forall s s' t,
  ready s t ->
  (forall k v, alookup k (st_ghosts s) = Some v -> alookup k (st_ghosts s') = Some v) ->
  (forall r, amem r (st_bodies s) = true -> amem r (st_bodies s') = true) ->
  (forall r, amem r (st_finals s) = true -> amem r (st_finals s') = true) ->
  (st_infos s' = st_infos s \/
   exists a i, st_infos s' = aset a i (st_infos s) /\
     (l_asset t = a -> forall j, deposit_info t = Some j -> j = i)) ->
  ready s' t.
Proof.
  intros s s' t R G B F I. constructor.
  - intros k Hk. apply G, (rd_ghost _ _ R k Hk).
  - apply (rd_outs _ _ R).
  - apply (rd_count _ _ R).
  - intros Hc. destruct (rd_claim _ _ R Hc) as (r & rs & X & Y & Z). exists r, rs. auto.
  - pose proof (rd_info _ _ R) as RI. destruct I as [->|(a & i & -> & A)]; [exact RI|].
    unfold aset. cbn [alookup]. destruct (N.eqb_spec (l_asset t) a) as [E|_]; [|exact RI].
    specialize (A E). unfold deposit_info in A. destruct (l_in t) as [k j d|b m|ins]; try discriminate.
    + rewrite (A j eq_refl). tauto.
    + split; [apply RI|discriminate].
Qed.

(* the asset info step of finalize_tx (finalizeTransaction); it runs after the
   finalization is recorded, hence set_finals s F *)
Lemma write_info_ok : forall s t F, ready s t ->
  exists I,
    match l_in t with
    | LDeposit _ info _ => write_asset_info (set_finals s F) (l_asset t) info
    | _ => Ok (set_finals s F)
    end = Ok (set_infos (set_finals s F) I) /\
    alookup (l_asset t) I <> None /\
    (I = st_infos s \/ exists i, deposit_info t = Some i /\ I = aset (l_asset t) i (st_infos s)).
Proof.
  intros s t F R. pose proof (rd_info _ _ R) as RI.
  unfold deposit_info, write_asset_info. cbn [st_infos set_finals].
  destruct (l_in t) as [k i d|b m|ins]; [|exists (st_infos s); split; [reflexivity|tauto]..].
  destruct RI as [_ [E|E]]; rewrite E.
  - eexists. split; [reflexivity|]. cbn [aset alookup]. rewrite N.eqb_refl. split; [discriminate|eauto].
  - rewrite N.eqb_refl. exists (st_infos s). split; [reflexivity|]. rewrite E. split; [discriminate|tauto].
Qed.

Lemma finalize_ok : forall s snap t,
  ready s t ->
  0 <= total_of s (l_asset t) ->
  total_of s (l_asset t) + adds t (l_asset t) <= capacity (l_asset t) ->
  subs t (l_asset t) <= total_of s (l_asset t) ->
  exists s', finalize_tx s snap t = Ok s' /\
    st_ghosts s' = st_ghosts s /\ st_bodies s' = st_bodies s /\
    (forall r, amem r (st_finals s) = true -> amem r (st_finals s') = true) /\
    (st_infos s' = st_infos s \/
       exists i, deposit_info t = Some i /\ st_infos s' = aset (l_asset t) i (st_infos s)) /\
    (forall a, total_of s' a = total_of s a \/ total_of s' a = total_of s a + adds t a - subs t a).
Proof.
  intros s snap t R H0 Hcap Hsub. unfold finalize_tx.
  destruct (amem (l_hash t) (st_finals s)). { exists s. repeat split; auto. }
  destruct (write_info_ok s t (aset (l_hash t) snap (st_finals s)) R) as (I & -> & HI & J).
  set (s1 := set_finals s _). cbn [bind].
  destruct (write_utxos_ok (l_outs t) (set_infos s1 I) t 0) as (U & ->).
  { exact (rd_ghost _ _ R). }
  { intros o Ho. apply (rd_outs _ _ R o Ho). }
  { (* at most KsSliceCountLimit (256) outputs, so no index reaches the limit (1024) *)
    pose proof (rd_count _ _ R). assert (Consts.KsSliceCountLimit <= Consts.KsInputIndexLimit + 1) by discriminate. lia. }
  { intros Hc. destruct (rd_claim _ _ R Hc) as (r & rs & A & B & C). exists r, rs.
    repeat split; [exact A|exact B|apply amem_aset_mono; exact C]. }
  cbn [bind].
  destruct (write_total_ok (set_utxos (set_infos s1 I) U) t) as (T & -> & HT); try assumption.
  { intros o Ho. apply (rd_outs _ _ R o Ho). }
  { pose proof (rd_info _ _ R) as RI. destruct (l_in t); try exact Logic.I; apply RI. }
  eexists. split; [reflexivity|]. do 2 (split; [reflexivity|]).
  split; [intros r; apply amem_aset_mono|]. split; [exact J|]. intros a. right. exact (HT a).
Qed.

Lemma sum_adds_cons : forall t r a, sum_adds (t :: r) a = adds t a + sum_adds r a.
Proof. reflexivity. Qed.
Lemma sum_subs_cons : forall t r a, sum_subs (t :: r) a = subs t a + sum_subs r a.
Proof. reflexivity. Qed.

Lemma sum_nonneg : forall s ts a, (forall t, In t ts -> ready s t) ->
  0 <= sum_adds ts a /\ 0 <= sum_subs ts a.
Proof.
  induction ts as [|t r IH]; intros a H; [cbn; lia|]. rewrite sum_adds_cons, sum_subs_cons.
  destruct (adds_subs_nonneg s t a (H t (or_introl eq_refl))).
  destruct (IH a (fun x Hx => H x (or_intror Hx))). lia.
Qed.

(* what the members still to be written add and withdraw fits the recorded totals *)
Definition budget (s : lstate) (ts : list ltx) : Prop :=
  forall a, 0 <= total_of s a /\ total_of s a + sum_adds ts a <= capacity a /\ sum_subs ts a <= total_of s a.

Lemma budget_head : forall s t r,
  budget s (t :: r) -> (forall x, In x (t :: r) -> ready s x) ->
  0 <= total_of s (l_asset t) /\
  total_of s (l_asset t) + adds t (l_asset t) <= capacity (l_asset t) /\
  subs t (l_asset t) <= total_of s (l_asset t).
Proof.
  intros s t r B Hr. specialize (B (l_asset t)). rewrite sum_adds_cons, sum_subs_cons in B.
  destruct (sum_nonneg s r (l_asset t) (fun x Hx => Hr x (or_intror Hx))). lia.
Qed.

Lemma budget_step : forall s s' t r,
  budget s (t :: r) -> (forall x, In x (t :: r) -> ready s x) ->
  (forall a, total_of s' a = total_of s a \/ total_of s' a = total_of s a + adds t a - subs t a) ->
  budget s' r.
Proof.
  intros s s' t r B Hr T a. specialize (B a). rewrite sum_adds_cons, sum_subs_cons in B.
  destruct (adds_subs_nonneg s t a (Hr t (or_introl eq_refl))).
  destruct (sum_nonneg s r a (fun x Hx => Hr x (or_intror Hx))).
  destruct (T a) as [-> | ->]; lia.
Qed.

(* [ready_mono] carries the readiness of the later members across the write of the
   first, [infos_agree] is what lets it pass the recording of the first member's
   asset info, and [budget_step] also covers a member that was finalized already
   and changes no total. *)
Lemma c16_members_ok : forall ts s snap,
  (forall t, In t ts -> alookup (l_hash t) (st_bodies s) = Some t) ->
  (forall t, In t ts -> ready s t) ->
  infos_agree ts -> budget s ts ->
  exists s', write_members s snap (map l_hash ts) = Ok s'.
Proof.
  induction ts as [|t r IH]; intros s snap Hb Hr Ha B; [exists s; reflexivity|].
  cbn [map write_members]. rewrite (Hb t (or_introl eq_refl)).
  destruct (finalize_ok s snap t (Hr t (or_introl eq_refl))) as (s1 & -> & G1 & B1 & F1 & I1 & T1);
    try apply (budget_head s t r B Hr).
  cbn [bind]. apply IH.
  - intros x Hx. cbn [st_bodies set_uniq]. rewrite B1. exact (Hb x (or_intror Hx)).
  - intros x Hx. apply (ready_mono s); cbn [st_ghosts st_bodies st_finals st_infos set_uniq].
    + exact (Hr x (or_intror Hx)).
    + rewrite G1. auto.
    + rewrite B1. auto.
    + exact F1.
    + destruct I1 as [E|(i & D & E)]; [left; exact E|right]. exists (l_asset t), i. split; [exact E|].
      intros Ea j Dj. symmetry. apply (Ha t x i j); auto using in_eq, in_cons.
  - intros t1 t2 i1 i2 H1 H2. apply Ha; right; assumption.
  - exact (budget_step s _ t r B Hr T1).
Qed.

Lemma existsb_map_false : forall {A B} (f : B -> bool) (g : A -> B) l,
  (forall x, In x l -> f (g x) = false) -> existsb f (map g l) = false.
Proof. intros A B f g l H. apply existsb_none, Forall_map, Forall_forall, H. Qed.

(* what validation (Validate, LockInputs, WriteTransaction) may change: ghost
   bindings and stored bodies only grow; totals, infos, finalizations and the
   UNIQUE records are untouched *)
Definition vmono (s1 s2 : lstate) : Prop :=
  (forall k v, alookup k (st_ghosts s1) = Some v -> alookup k (st_ghosts s2) = Some v) /\
  (forall h t, alookup h (st_bodies s1) = Some t -> alookup h (st_bodies s2) = Some t) /\
  st_finals s2 = st_finals s1 /\ st_infos s2 = st_infos s1 /\
  st_totals s2 = st_totals s1 /\ st_uniq s2 = st_uniq s1.

Lemma vmono_refl : forall s, vmono s s.
Proof. intros s. repeat split; auto. Qed.

Lemma vmono_trans : forall a b c, vmono a b -> vmono b c -> vmono a c.
Proof.
  intros a b c (G1 & B1 & F1 & I1 & T1 & U1) (G2 & B2 & F2 & I2 & T2 & U2).
  repeat split; try congruence; auto.
Qed.

Lemma total_of_vmono : forall s s' a, vmono s s' -> total_of s' a = total_of s a.
Proof. intros s s' a (_ & _ & _ & _ & T & _). unfold total_of. rewrite T. reflexivity. Qed.

Lemma ready_vmono : forall s1 s2 t, ready s1 t -> vmono s1 s2 -> ready s2 t.
Proof.
  intros s1 s2 t R (G & B & F & I & _). apply (ready_mono s1); auto.
  - intros r Hr. apply amem_iff in Hr. destruct Hr as [v Hv]. apply amem_iff. eauto.
  - rewrite F. auto.
Qed.

(* the step of the fold in bind_ghosts *)
Definition gstep (h : N) (g : list (N * N)) (k : N) : list (N * N) :=
  match alookup k g with None => aset k h g | Some _ => g end.

Lemma gfold_keeps : forall h keys k v g,
  alookup k g = Some v -> alookup k (fold_left (gstep h) keys g) = Some v.
Proof.
  intros h keys k v. apply (fold_left_inv (fun g => alookup k g = Some v)). intros g k0 _ H. unfold gstep.
  destruct (alookup k0 g) eqn:E; [exact H|]. rewrite alookup_aset_neq; [exact H|].
  intros ->. rewrite H in E. discriminate E.
Qed.

Lemma gfold_binds : forall h keys g k,
  In k keys -> alookup k g = None -> alookup k (fold_left (gstep h) keys g) = Some h.
Proof.
  intros h keys. induction keys as [|k0 r IH]; intros g k Hk E; [destruct Hk|].
  cbn [fold_left]. unfold gstep. destruct Hk as [<-|Hk].
  - rewrite E. apply gfold_keeps, alookup_aset_eq.
  - destruct (alookup k0 g); [exact (IH g k Hk E)|].
    destruct (N.eq_dec k k0) as [->|Ne]; [apply gfold_keeps, alookup_aset_eq|].
    apply (IH _ k Hk). rewrite alookup_aset_neq; assumption.
Qed.

Lemma bind_ghosts_spec : forall s h keys,
  ghosts_free s h keys = true ->
  (forall k, In k keys -> alookup k (st_ghosts (bind_ghosts s h keys)) = Some h) /\
  vmono s (bind_ghosts s h keys).
Proof.
  intros s h keys F. unfold bind_ghosts. cbn [st_ghosts set_ghosts]. fold (gstep h). split.
  - intros k Hk. unfold ghosts_free in F. rewrite forallb_forall in F. specialize (F k Hk).
    destruct (alookup k (st_ghosts s)) as [b|] eqn:E; [|exact (gfold_binds h keys _ k Hk E)].
    apply gfold_keeps. rewrite E. f_equal. lia.
  - repeat split; auto. intros k v. apply gfold_keeps.
Qed.

(* the [inp] of validate_tx, named so that validate_tx_true can state its value *)
Definition input_stage (s : lstate) (t : ltx) : option (Z * list Z * bool) :=
  match l_in t with
  | LDeposit _ _ amt => Some (amt, [], true)
  | LMint _ amt => Some (amt, [], true)
  | LUtxos ins =>
      match check_utxo_inputs s (l_hash t) (l_asset t) (l_type t) [] ins with
      | Some (a, tys) => Some (a, tys, l_sig t)
      | None => None
      end
  end.

Lemma validate_tx_true : forall s t s1,
  validate_tx s t = (s1, true) ->
  exists amt utypes,
    1 <= inputs_count t /\
    Z.of_nat (length (l_outs t)) <= Consts.KsSliceCountLimit /\
    refs_ok s (l_refs t) = true /\
    input_stage s t = Some (amt, utypes, true) /\
    0 < amt /\
    outputs_shape_ok (l_outs t) = true /\
    ghosts_free s (l_hash t) (all_keys (l_outs t)) = true /\
    s1 = bind_ghosts s (l_hash t) (all_keys (l_outs t)) /\
    type_specific s1 t (l_type t) utypes = true.
Proof.
  intros s t s1 H. unfold validate_tx in H. cbv zeta in H. fold (input_stage s t) in H.
  destruct (l_type t =? TUnknown); [discriminate|].
  destruct ((inputs_count t <? 1) || _) eqn:E1; [discriminate|].
  destruct ((Consts.KsSliceCountLimit <? inputs_count t) || _ || _) eqn:E2; [discriminate|].
  destruct (refs_ok s (l_refs t)); [|discriminate].
  destruct (input_stage s t) as [[[amt utypes] []]|]; [|discriminate H..].
  destruct (amt <=? 0) eqn:E5; [discriminate|].
  destruct (outputs_shape_ok (l_outs t)); [|discriminate].
  destruct (negb (sum_outs (l_outs t) =? amt)); [discriminate|].
  destruct (ghosts_free s (l_hash t) (all_keys (l_outs t))); [|discriminate].
  injection H as <- Hts. exists amt, utypes. repeat split; try assumption; [clear -E1|clear -E2|clear -E5]; lia.
Qed.

Lemma forallb_script : forall outs, forallb (fun o => o_type o =? OScript) outs = true ->
  forall o, In o outs -> o_type o = OScript.
Proof. intros outs H o Ho. rewrite forallb_forall in H. apply Z.eqb_eq, H, Ho. Qed.

Lemma all_script_fine : forall outs, (forall o, In o outs -> o_type o = OScript) ->
  (forall o, In o outs -> out_fine o) /\ ~ exists o, In o outs /\ o_type o = OWithdrawalClaim.
Proof.
  intros outs A. split; [intros o Ho; left; exact (A o Ho)|].
  intros (o & Ho & E). rewrite (A o Ho) in E. discriminate E.
Qed.

Lemma head_tail_shape : forall outs,
  tail_all_script outs = true -> forall o, In o outs -> o_type o = head_type outs \/ o_type o = OScript.
Proof.
  intros [|x r] Ht o Ho; [destruct Ho|]. destruct Ho as [<-|Ho]; [left; reflexivity|right].
  exact (forallb_script r Ht o Ho).
Qed.

Lemma type_specific_inv : forall s t utypes,
  type_specific s t (l_type t) utypes = true ->
  (forall o, In o (l_outs t) -> out_fine o) /\
  ((exists o, In o (l_outs t) /\ o_type o = OWithdrawalClaim) -> exists r, l_refs t = [r]) /\
  match l_in t with
  | LDeposit _ i _ => alookup (l_asset t) (st_infos s) = None \/ alookup (l_asset t) (st_infos s) = Some i
  | LMint _ _ => l_asset t = Consts.KsAssetXIN
  | LUtxos _ => True
  end.
Proof.
  intros s t utypes H. unfold type_specific in H. pose proof (l_type_cases t) as TC.
  destruct (l_in t) as [k i d|b m|ins].
  - rewrite TC in H. simpl (TDeposit =? _) in H. cbv iota in H.
    apply andb_prop in H as [[[[[Ho _]%andb_prop _]%andb_prop Hi]%andb_prop _]%andb_prop _].
    destruct (l_outs t) as [|o [|]]; try discriminate. apply Z.eqb_eq in Ho.
    destruct (all_script_fine [o]) as [A B]; [intros x [<-|[]]; exact Ho|]. split; [exact A|]. split; [tauto|].
    destruct (alookup (l_asset t) (st_infos s)) as [old|]; [right|left; reflexivity].
    apply andb_prop in Hi as [_ Hi%N.eqb_eq]. rewrite Hi. reflexivity.
  - rewrite TC in H. simpl (TMint =? _) in H. cbv iota in H.
    apply andb_prop in H as [[Ho Hx]%andb_prop _].
    destruct (all_script_fine _ (forallb_script _ Ho)) as [A B]. split; [exact A|]. split; [tauto|].
    apply N.eqb_eq, Hx.
  - destruct TC as (T1 & T2 & T3).
    destruct (Z.eqb_spec (l_type t) TScript) as [Ts|_].
    { destruct (all_script_fine _ (T3 Ts)) as [A B]. split; [exact A|]. split; [tauto|exact I]. }
    destruct (l_type t =? TMint); [discriminate|]. destruct (l_type t =? TDeposit); [discriminate|].
    destruct (l_type t =? TWithdrawalSubmit).
    { apply andb_prop in H as [[_ Ht]%andb_prop Hh%Z.eqb_eq].
      pose proof (head_tail_shape _ Ht) as S. rewrite Hh in S.
      split; [intros o Ho; unfold out_fine; destruct (S o Ho); tauto|]. split; [|exact I].
      intros (o & Ho & E). destruct (S o Ho) as [E'|E']; rewrite E' in E; discriminate E. }
    destruct (l_type t =? TWithdrawalClaim); [|discriminate].
    apply andb_prop in H as [[[[[_ Ht]%andb_prop Hh%Z.eqb_eq]%andb_prop _]%andb_prop Hr]%andb_prop _].
    pose proof (head_tail_shape _ Ht) as S. rewrite Hh in S.
    split; [intros o Ho; unfold out_fine; destruct (S o Ho); tauto|]. split; [|exact I].
    intros _. destruct (l_refs t) as [|r [|]]; try discriminate. exists r. reflexivity.
Qed.

(* ledger invariants validation relies on: XIN is a recorded asset (genesis),
   every unspent output's asset is recorded (outputs only come from deposits,
   mints and genesis, which record the asset) *)
Record vinv (s : lstate) : Prop := {
  vi_xin : alookup Consts.KsAssetXIN (st_infos s) <> None;
  vi_utxo : forall h i u, ulookup h i s = Some u -> alookup (u_asset u) (st_infos s) <> None
}.

Lemma vinv_ext : forall s s', st_infos s' = st_infos s -> st_utxos s' = st_utxos s -> vinv s -> vinv s'.
Proof. intros s s' Ei Eu [X U]. constructor; unfold ulookup; rewrite ?Ei, ?Eu; [exact X|exact U]. Qed.

Lemma check_inputs_first : forall s h asset ty seen ih ii r a tys,
  check_utxo_inputs s h asset ty seen ((ih, ii) :: r) = Some (a, tys) ->
  exists u, ulookup ih ii s = Some u /\ u_asset u = asset.
Proof.
  intros s h asset ty seen ih ii r a tys H. cbn [check_utxo_inputs] in H.
  destruct (pmem ih ii seen); [discriminate|].
  destruct (ulookup ih ii s) as [u|]; [|discriminate].
  destruct (N.eqb_spec (u_asset u) asset) as [E|]; [|discriminate]. exists u. split; [reflexivity|exact E].
Qed.

Lemma outputs_shape_pos : forall outs, outputs_shape_ok outs = true ->
  forall o, In o outs -> 0 < o_amt o.
Proof.
  intros outs H o Ho. unfold outputs_shape_ok in H. apply andb_prop in H as [H _].
  rewrite forallb_forall in H. specialize (H o Ho). lia.
Qed.

Lemma refs_ok_in : forall s refs r, refs_ok s refs = true -> In r refs ->
  amem r (st_bodies s) = true /\ amem r (st_finals s) = true.
Proof.
  intros s refs r H Hr. unfold refs_ok in H. apply andb_prop in H as [_ H].
  rewrite forallb_forall in H. apply andb_true_iff, H, Hr.
Qed.

(* an accepted member is ready for finalization in the state validation leaves *)
Lemma validate_tx_ready : forall s t s1,
  vinv s -> validate_tx s t = (s1, true) ->
  s1 = bind_ghosts s (l_hash t) (all_keys (l_outs t)) /\ vmono s s1 /\ ready s1 t.
Proof.
  intros s t s1 V H.
  destruct (validate_tx_true _ _ _ H) as (amt & utypes & Hin & Hcnt & Hrefs & Hst & Hamt & Hshape & Hfree & -> & Hts).
  destruct (bind_ghosts_spec s (l_hash t) (all_keys (l_outs t)) Hfree) as [Hb Hm].
  destruct (type_specific_inv _ _ _ Hts) as (Hfine & Hclaim & Hinfo).
  split; [reflexivity|]. split; [exact Hm|]. constructor.
  - exact Hb.
  - intros o Ho. split; [exact (outputs_shape_pos _ Hshape o Ho)|exact (Hfine o Ho)].
  - exact Hcnt.
  - intros Hc. destruct (Hclaim Hc) as (r & Er). exists r, []. split; [exact Er|].
    apply (refs_ok_in s (l_refs t) r Hrefs). rewrite Er. left. reflexivity.
  - unfold input_stage, inputs_count in *. change (st_infos (bind_ghosts _ _ _)) with (st_infos s) in *.
    destruct (l_in t) as [k i d|b m|[|[ih ii] r]].
    + injection Hst as <- _. tauto.
    + injection Hst as <- _. rewrite Hinfo. split; [exact Hamt|exact (vi_xin _ V)].
    + exfalso. exact (Hin eq_refl).
    + destruct (check_utxo_inputs _ _ _ _ _ _) as [[a tys]|] eqn:Ec; [|discriminate].
      destruct (check_inputs_first _ _ _ _ _ _ _ _ _ _ Ec) as (u & Hu & <-). exact (vi_utxo _ V ih ii u Hu).
Qed.

Lemma ulookup_uset : forall h i u s h' i',
  ulookup h' i' (uset h i u s) =
  if (h' =? h)%N then (if (i' =? i)%N then Some u else ulookup h i' s) else ulookup h' i' s.
Proof.
  intros h i u s h' i'. unfold ulookup, uset. cbn [st_utxos set_utxos]. unfold aset. cbn [alookup].
  destruct (h' =? h)%N eqn:Eh; [|reflexivity].
  cbn [alookup]. destruct (i' =? i)%N; [reflexivity|].
  destruct (alookup h (st_utxos s)); reflexivity.
Qed.

Lemma lock_utxos_spec : forall ins s h s1,
  lock_utxos s h ins = Some s1 -> vinv s -> vmono s s1 /\ st_bodies s1 = st_bodies s /\ vinv s1.
Proof.
  induction ins as [|[ih ii] r IH]; intros s h s1 H V.
  - injection H as <-. split; [apply vmono_refl|split; [reflexivity|exact V]].
  - cbn [lock_utxos] in H. destruct (ulookup ih ii s) as [u|] eqn:Eu; [|discriminate].
    destruct (negb (u_lock u =? 0)%N && negb (u_lock u =? h)%N); [discriminate|].
    apply (IH _ _ _ H). constructor; [exact (vi_xin _ V)|].
    intros h' i' u' Hl. rewrite ulookup_uset in Hl. change (st_infos (uset _ _ _ s)) with (st_infos s).
    destruct (h' =? ih)%N; [destruct (i' =? ii)%N|];
      [injection Hl as <-; exact (vi_utxo _ V _ _ _ Eu)|exact (vi_utxo _ V _ _ _ Hl)..].
Qed.

Lemma lock_inputs_spec : forall s t s1,
  lock_inputs s t = Some s1 -> vinv s -> vmono s s1 /\ st_bodies s1 = st_bodies s /\ vinv s1.
Proof.
  intros s t s1 H V. unfold lock_inputs in H.
  destruct (l_type t =? TMint); [|destruct (l_type t =? TDeposit)];
    destruct (l_in t) as [key ? ?|b a|ins]; try discriminate.
  - destruct (zlookup b (st_mints s)) as [[a' h']|]; [destruct (_ && _); [|discriminate]|];
      injection H as <-; (split; [repeat split; auto|split; [reflexivity|apply (vinv_ext s); [reflexivity..|exact V]]]).
  - destruct (alookup key (st_dlocks s)) as [b|]; [destruct (b =? l_hash t)%N; [|discriminate]|];
      injection H as <-; (split; [repeat split; auto|split; [reflexivity|apply (vinv_ext s); [reflexivity..|exact V]]]).
  - exact (lock_utxos_spec _ _ _ _ H V).
Qed.

Lemma persist_tx_spec : forall s t s2,
  persist_tx s t = Some s2 -> alookup (l_hash t) (st_bodies s) = None ->
  s2 = set_bodies s (aset (l_hash t) t (st_bodies s)).
Proof.
  intros s t s2 H Hn. unfold persist_tx, amem in H. rewrite Hn in H.
  destruct (match l_in t with LDeposit _ _ _ => _ | _ => true end); [|discriminate].
  injection H as <-. reflexivity.
Qed.

(* the cache is keyed by the payload hash *)
Definition pool_keyed (pool : list (N * ltx)) : Prop :=
  forall h t, alookup h pool = Some t -> l_hash t = h.

Fixpoint batch_txs (pool : list (N * ltx)) (hs : list N) : list ltx :=
  match hs with
  | [] => []
  | h :: r => match alookup h pool with
              | Some t => t :: batch_txs pool r
              | None => batch_txs pool r
              end
  end.

(* the flag [true] is [missing]: some member was found neither stored nor cached *)
Lemma validate_loop_missing : forall hs s sn pool last found,
  snd (validate_loop s sn pool last found true hs) = false.
Proof.
  induction hs as [|h r IH]; intros s sn pool last found; cbn [validate_loop]; [reflexivity|].
  destruct (alookup h (st_bodies s)) as [t|].
  - destruct (match alookup h (st_finals s) with Some _ => _ | None => _ end); [reflexivity|].
    destruct (batch_rules _ _ _); [apply IH|reflexivity].
  - destruct (alookup h pool) as [t|]; [|apply IH].
    destruct (validate_tx s t) as [s1 []]; [|reflexivity]. cbn [negb].
    destruct (negb _); [reflexivity|]. destruct (lock_and_persist s1 t); [apply IH|reflexivity].
Qed.

Lemma member_ready : forall s t s1 s2,
  vinv s -> alookup (l_hash t) (st_bodies s) = None ->
  validate_tx s t = (s1, true) -> lock_and_persist s1 t = Some s2 ->
  vinv s2 /\ vmono s s2 /\ ready s2 t /\ st_bodies s2 = aset (l_hash t) t (st_bodies s).
Proof.
  intros s t s1 s2 V Hn Hv Hl. destruct (validate_tx_ready _ _ _ V Hv) as (-> & M1 & R1).
  unfold lock_and_persist in Hl. destruct (lock_inputs _ t) as [s1'|] eqn:El; [|discriminate].
  destruct (lock_inputs_spec _ _ _ El) as (M1' & B1' & V1'); [apply (vinv_ext s); [reflexivity..|exact V]|].
  change (st_bodies (bind_ghosts _ _ _)) with (st_bodies s) in B1'.
  rewrite (persist_tx_spec _ _ _ Hl) in * by (rewrite B1'; exact Hn). clear Hl.
  assert (M2 : vmono s1' (set_bodies s1' (aset (l_hash t) t (st_bodies s1')))).
  { repeat split; auto. intros h x Hx. cbn [st_bodies set_bodies].
    rewrite alookup_aset_neq; [exact Hx|]. rewrite B1' in Hx. congruence. }
  pose proof (vmono_trans _ _ _ M1' M2) as M12.
  split; [apply (vinv_ext s1'); [reflexivity..|exact V1']|]. split; [exact (vmono_trans _ _ _ M1 M12)|].
  split; [exact (ready_vmono _ _ _ R1 M12)|]. cbn. rewrite B1'. reflexivity.
Qed.

Lemma validate_loop_ready : forall hs s sn pool last found s',
  validate_loop s sn pool last found false hs = (s', true) ->
  vinv s -> pool_keyed pool -> NoDup hs ->
  (forall h, In h hs -> alookup h (st_bodies s) = None) ->
  vmono s s' /\
  map l_hash (batch_txs pool hs) = hs /\
  (forall t, In t (batch_txs pool hs) -> alookup (l_hash t) (st_bodies s') = Some t /\ ready s' t).
Proof.
  induction hs as [|h r IH]; intros s sn pool last found s' H V PK ND Fr.
  - injection H as <-. split; [apply vmono_refl|]. split; [reflexivity|]. intros t [].
  - cbn [validate_loop] in H. rewrite (Fr h (or_introl eq_refl)) in H.
    cbn [batch_txs]. destruct (alookup h pool) as [t|] eqn:Ep.
    2:{ pose proof (validate_loop_missing r s sn pool last found) as M. rewrite H in M. discriminate M. }
    pose proof (PK h t Ep) as <-.
    destruct (validate_tx s t) as [s1 []] eqn:Ev; cbn [negb] in H; [|discriminate].
    destruct (negb (batch_rules _ _ _)); [discriminate|].
    destruct (lock_and_persist s1 t) as [s2|] eqn:El; [|discriminate].
    destruct (member_ready s t s1 s2 V (Fr _ (or_introl eq_refl)) Ev El) as (V2 & M2 & R2 & B2).
    apply NoDup_cons_iff in ND. destruct ND as [Hnotin ND].
    destruct (IH s2 sn pool last _ s' H V2 PK ND) as (M3 & Emap & Hall).
    { intros h' Hh'. rewrite B2, alookup_aset_neq; [exact (Fr h' (or_intror Hh'))|congruence]. }
    split; [exact (vmono_trans _ _ _ M2 M3)|]. split; [cbn [map]; rewrite Emap; reflexivity|].
    intros x [<-|Hx]; [|exact (Hall x Hx)]. split; [|exact (ready_vmono _ _ _ R2 M3)].
    apply M3. rewrite B2. apply alookup_aset_eq.
Qed.

(* li_uniq: a UNIQUE record exists only for a stored body, so a member not stored
   yet is not recorded for this node *)
Record ledger_inv (s : lstate) : Prop := {
  li_v : vinv s;
  li_totals : forall a, 0 <= total_of s a;
  li_uniq : forall h, nmem h (st_uniq s) = true -> amem h (st_bodies s) = true
}.
