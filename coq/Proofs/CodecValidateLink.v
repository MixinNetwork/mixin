(* Every transaction the byte-level decoder model returns (Model/TxCodec.v, unmarshal)
   projects to a transaction satisfying the well-formedness predicate [decodable] that
   C05's panic-freedom theorem assumes (Proofs/Validate.v). *)
From Coq Require Import List ZArith NArith Bool Lia ZifyN ZifyNat ZifyBool.
Require Import Mixin.Base.Res Mixin.Gen.Consts.
Require Mixin.Model.TxCodec Mixin.Proofs.TxCodec Mixin.Proofs.TxCodecTop.
Require Mixin.Model.Validate Mixin.Proofs.Validate.
Require Import Mixin.Model.CodecValidateLink.
Import ListNotations.

Module CP := Mixin.Proofs.TxCodec.
Module CT := Mixin.Proofs.TxCodecTop.
Module VP := Mixin.Proofs.Validate.

Lemma len_blen {A} (l : list A) : V.len l = Z.of_N (C.blen l).
Proof. unfold V.len, C.blen. lia. Qed.

(* one model counts bytes as (log2 v + 8) / 8, the other as (size v + 7) / 8: log2 = size - 1 *)
Lemma int_bytes_of_N v : V.int_bytes (Z.of_N v) = Z.of_N (C.int_size v).
Proof.
  unfold V.int_bytes, C.int_size. destruct v as [|p]; [reflexivity|].
  change (Z.of_N (N.pos p) =? 0)%Z with false. cbv iota.
  rewrite N2Z.inj_div, N2Z.inj_add. cbn [N.size Z.of_N Z.abs].
  replace (Z.log2 (Z.pos p) + 8)%Z with (Z.pos (Pos.size p) + 7)%Z; [reflexivity|].
  destruct p; cbn [Z.log2 Pos.size]; lia.
Qed.

Lemma le_int_ok_len x : C.ok_len x = true -> V.le_int (V.len x) = true.
Proof.
  unfold C.ok_len, V.le_int. rewrite VP.enc_int_max_val, CP.max_int_val, len_blen. lia.
Qed.

Lemma amount_ok_of_N v : C.ok_integer v = true -> VP.amount_ok (Z.of_N v) = true.
Proof.
  unfold C.ok_integer, VP.amount_ok, V.le_int. rewrite VP.enc_int_max_val, CP.max_int_val, int_bytes_of_N. lia.
Qed.

Lemma len_slice_limit {A} (l : list A) : (C.blen l <= C.slice_limit)%N -> (V.len l <=? V.slice_limit)%Z = true.
Proof.
  rewrite VP.slice_limit_val, CP.slice_limit_val, len_blen. lia.
Qed.

(* The counts the decoder enforces beyond the encoder's guards.  The walk of Proofs/TxCodec.v
   ([keeps]) supposes the input a string of bytes, which [unmarshal_decodable] does not; the
   counts need no such thing, so they are read off the decoder once more, by inversion.

   One step of inverting a successful run [H : _ = Some _] of an option parser *)
Ltac opt_step H :=
  match type of H with
  | match ?e with Some _ => _ | None => None end = Some _ =>
      let E := fresh "E" in destruct e as [[? ?]|] eqn:E; [cbv iota beta in H | discriminate H]
  | (if ?c then _ else _) = Some _ =>
      let K := fresh "K" in destruct c eqn:K; try discriminate H
  end.

Lemma par_list_all {A} (p : C.bytes -> option (A * C.bytes)) (P : A -> Prop) :
  (forall b x r, p b = Some (x, r) -> P x) ->
  forall n b xs r, C.par_list p n b = Some (xs, r) -> Forall P xs /\ C.blen xs = N.of_nat n.
Proof.
  intros Hp. induction n as [|n IH]; intros b xs r H; cbn [C.par_list] in H.
  - injection H as <- <-. split; [constructor|reflexivity].
  - opt_step H. opt_step H. injection H as <- <-. destruct (IH _ _ _ E0) as [F L].
    split; [constructor; [eapply Hp; eassumption|exact F]|unfold C.blen in *; cbn [length]; lia].
Qed.

Lemma par_list_blen {A} (p : C.bytes -> option (A * C.bytes)) n b xs r :
  C.par_list p n b = Some (xs, r) -> C.blen xs = N.of_nat n.
Proof. intros H. exact (proj2 (par_list_all p (fun _ => True) (fun _ _ _ _ => I) _ _ _ _ H)). Qed.

Lemma par_output_keys lim b o r : C.par_output lim b = Some (o, r) -> (C.blen (C.o_keys o) <= lim)%N.
Proof.
  intros H. unfold C.par_output in H. repeat opt_step H. injection H as <- <-.
  match goal with E : C.par_list C.rd_h32 _ _ = Some _ |- _ => apply par_list_blen in E end.
  cbn [C.o_keys]. lia.
Qed.

Lemma par_auth_maps b a r : C.par_auth b = Some (a, r) ->
  match a with C.SigMaps ms => (C.blen ms <= C.slice_limit)%N | C.Aggregate _ _ => True end.
Proof.
  intros H. unfold C.par_auth in H. opt_step H. opt_step H.
  - opt_step H. opt_step H. opt_step H. injection H as <- <-. exact I.
  - opt_step H; [opt_step H; apply par_list_blen in E0|]; injection H as <- <-; [lia|discriminate].
Qed.

Lemma dec_tx_counts b t : C.dec_tx b = Some t ->
  Forall (fun o => (C.blen (C.o_keys o) <= C.slice_limit)%N) (C.t_outputs t) /\
  (C.blen (C.t_refs t) <= C.slice_limit)%N /\
  match C.t_auth t with C.SigMaps ms => (C.blen ms <= C.slice_limit)%N | C.Aggregate _ _ => True end.
Proof.
  intros H. unfold C.dec_tx, C.dec_tx_lim in H. do 16 opt_step H.
  match type of H with match ?bb with [] => _ | _ :: _ => _ end = _ => destruct bb; [|discriminate H] end.
  injection H as <-. cbn [C.t_outputs C.t_refs C.t_auth]. repeat split.
  - match goal with E : C.par_list (C.par_output _) _ _ = Some _ |- _ =>
      exact (proj1 (par_list_all _ _ (fun b x r => par_output_keys _ b x r) _ _ _ _ E)) end.
  - match goal with E : C.par_list C.rd_h32 _ _ = Some _ |- _ => apply par_list_blen in E end. lia.
  - eapply par_auth_maps. eassumption.
Qed.

Lemma dec_input_of_ok trim i : C.ok_input i = true -> VP.dec_input_ok (proj_input trim i) = true.
Proof.
  unfold C.ok_input, VP.dec_input_ok. intros [[[Hi Hg%le_int_ok_len]%andb_prop Hd]%andb_prop Hm]%andb_prop.
  cbn [proj_input V.i_index V.i_genesis V.i_deposit V.i_mint].
  rewrite CP.index_limit_val in Hi. unfold Consts.ValInputIndexLimit.
  repeat (apply andb_true_intro; split).
  - clear - Hi. lia.
  - clear - Hi. lia.
  - destruct (C.i_genesis i) as [|x g]; [reflexivity|]. cbn [proj_genesis].
    rewrite Hg, andb_true_r. reflexivity.
  - destruct (C.i_deposit i) as [d|]; [|reflexivity]. cbn [option_map C.ok_opt] in *.
    apply andb_prop in Hd as [[Hk Ht]%andb_prop Ha].
    cbn [proj_deposit V.d_key V.d_txlen V.d_amount V.d_index].
    rewrite (le_int_ok_len _ Hk), (le_int_ok_len _ Ht), (amount_ok_of_N _ Ha).
    unfold V.len. clear. lia.
  - destruct (C.i_mint i) as [m|]; [|reflexivity]. cbn [option_map C.ok_opt] in *.
    apply andb_prop in Hm as [Hk Ha].
    cbn [proj_mint V.m_group V.m_amount V.m_batch].
    rewrite (le_int_ok_len _ Hk), (amount_ok_of_N _ Ha). clear. lia.
Qed.

Lemma dec_output_of_ok o :
  C.ok_output o = true -> (C.blen (C.o_keys o) <= C.slice_limit)%N ->
  VP.dec_output_ok (proj_output o) = true.
Proof.
  unfold C.ok_output, VP.dec_output_ok. intros [[[Ha _]%andb_prop Hs]%andb_prop Hw]%andb_prop Hk.
  cbn [proj_output V.o_amount V.o_keys V.o_script V.o_withdrawal].
  rewrite (amount_ok_of_N _ Ha), (len_slice_limit _ Hk), (le_int_ok_len _ Hs).
  destruct (C.o_withdrawal o) as [w|]; [|reflexivity]. cbn [option_map C.ok_opt] in *.
  apply andb_prop in Hw as [H1 H2]. rewrite (le_int_ok_len _ H1), (le_int_ok_len _ H2).
  unfold V.len. clear. lia.
Qed.

Lemma len_app {A} (x y : list A) : V.len (x ++ y) = (V.len x + V.len y)%Z.
Proof. unfold V.len. rewrite app_length. lia. Qed.
Lemma len_be n v : V.len (C.be_enc n v) = Z.of_nat n.
Proof. unfold V.len. rewrite CP.be_enc_length. reflexivity. Qed.
Lemma len_bytes x : V.len (C.ser_bytes x) = (2 + V.len x)%Z.
Proof. unfold C.ser_bytes, C.ser_u16. rewrite len_app, len_be. reflexivity. Qed.
Lemma len_integer v : V.len (C.ser_integer v) = (2 + V.int_bytes (Z.of_N v))%Z.
Proof. unfold C.ser_integer, C.ser_u16. rewrite len_app, !len_be, int_bytes_of_N. lia. Qed.

Lemma len_opt {A B} (f : A -> C.bytes) (g : A -> B) (sz : B -> Z) o :
  (forall a, V.len (f a) = sz (g a)) ->
  V.len (C.ser_opt f o) = (2 + match option_map g o with None => 0 | Some y => sz y end)%Z.
Proof.
  intros Hf. destruct o as [a|]; cbn [C.ser_opt option_map]; [|reflexivity].
  rewrite len_app, Hf. reflexivity.
Qed.

Lemma len_input trim i : V.len (C.ser_input i) = V.input_size (proj_input trim i).
Proof.
  unfold C.ser_input, V.input_size, C.ser_h32, C.ser_u16.
  rewrite !len_app, !len_be, len_bytes.
  rewrite (len_opt C.ser_deposit (proj_deposit trim) V.deposit_size), (len_opt C.ser_mint proj_mint V.mint_size).
  - cbn [proj_input V.i_genesis V.i_deposit V.i_mint].
    destruct (C.i_genesis i); cbn [proj_genesis V.opt_len]; [change (V.len []) with 0%Z|]; lia.
  - intros m. unfold C.ser_mint, V.mint_size, C.ser_u64.
    rewrite !len_app, !len_be, !len_bytes, len_integer. cbn [proj_mint V.m_group V.m_amount]. lia.
  - intros d. unfold C.ser_deposit, V.deposit_size, C.ser_h32, C.ser_u64.
    rewrite !len_app, !len_be, !len_bytes, len_integer. cbn [proj_deposit V.d_key V.d_txlen V.d_amount]. lia.
Qed.

Lemma len_flat_h32 ks : V.len (flat_map C.ser_h32 ks) = (32 * V.len ks)%Z.
Proof.
  induction ks as [|k ks IH]; [reflexivity|]. cbn [flat_map]. rewrite len_app, IH. unfold C.ser_h32.
  rewrite len_be. unfold V.len. cbn [length]. lia.
Qed.

Lemma len_output o : V.len (C.ser_output o) = V.output_size (proj_output o).
Proof.
  unfold C.ser_output, V.output_size, C.ser_h32, C.ser_u16.
  rewrite !len_app, !len_be, len_bytes, len_integer, len_flat_h32.
  rewrite (len_opt C.ser_withdrawal (fun w => (V.len (C.w_address w), V.len (C.w_tag w)))
             (fun ag => let (a, g) := ag in 2 + a + 2 + g)%Z).
  - cbn [proj_output V.o_amount V.o_keys V.o_script V.o_withdrawal]. change (V.len [0%N; C.o_type o]) with 2%Z. lia.
  - intros w. unfold C.ser_withdrawal. rewrite len_app, !len_bytes. lia.
Qed.

Lemma len_flat {A B} (f : A -> list N) (g : A -> B) (sz : B -> Z) (l : list A) :
  (forall a, V.len (f a) = sz (g a)) -> V.len (flat_map f l) = V.sum_map sz (map g l).
Proof.
  intros Hf. induction l as [|a l IH]; [reflexivity|].
  cbn [flat_map map]. rewrite len_app, IH, Hf. reflexivity.
Qed.

(* the payload size counts an empty authorization, the shortest there is *)
Lemma payload_size_le trim sigv t : (V.payload_size (proj trim sigv t) <= V.len (C.ser_tx t))%Z.
Proof.
  unfold C.ser_tx, V.payload_size, C.ser_h32, C.ser_u16, C.ser_u32.
  rewrite !len_app, !len_be.
  rewrite (len_flat C.ser_input (proj_input trim) V.input_size _ (len_input trim)).
  rewrite (len_flat C.ser_output proj_output V.output_size _ len_output).
  rewrite len_flat_h32, (len_blen (C.ser_auth _)). cbn [proj V.t_inputs V.t_outputs V.t_refs V.t_extra].
  pose proof (CT.ser_auth_blen (C.t_auth t)) as A.
  change (V.len [0%N; C.t_version t]) with 2%Z. change (V.len C.magic) with 2%Z. lia.
Qed.

Lemma agg_order_of_increasing s : forall prev,
  C.signers_increasing prev s = true ->
  V.agg_order_ok (match prev with None => (-1)%Z | Some p => Z.of_N p end) (map Z.of_N s) = true.
Proof.
  induction s as [|m s IH]; intros prev H; cbn [C.signers_increasing map V.agg_order_ok] in *; [reflexivity|].
  apply andb_prop in H as [[H1 H2]%andb_prop H3].
  rewrite CP.max_int_val in H2. rewrite VP.enc_int_max_val.
  replace (_ || _)%bool with false by (destruct prev; lia). exact (IH (Some m) H3).
Qed.

Lemma agg_signers_of_validate s : C.validate_signers s = true -> V.agg_signers_ok (map Z.of_N s) = true.
Proof.
  unfold C.validate_signers, V.agg_signers_ok. intros [H1 H2]%andb_prop. apply andb_true_intro. split.
  - rewrite CP.max_int_val in H1. rewrite VP.enc_int_max_val. unfold V.len, C.blen in *.
    rewrite map_length. lia.
  - exact (agg_order_of_increasing s None H2).
Qed.

Lemma proj_maps_length sigv ms : forall pos, length (proj_maps sigv pos ms) = length ms.
Proof. induction ms as [|m ms IH]; intros pos; cbn [proj_maps length]; [reflexivity|]. rewrite IH. reflexivity. Qed.

Lemma dec_sigs_of_ok trim sigv t :
  C.ok_auth (C.t_auth t) = true ->
  match C.t_auth t with C.SigMaps ms => (C.blen ms <= C.slice_limit)%N | C.Aggregate _ _ => True end ->
  VP.dec_sigs_ok (proj trim sigv t) = true.
Proof.
  intros Hau Hmaps. unfold VP.dec_sigs_ok. cbn [proj V.t_agg V.t_sigs].
  destruct (C.t_auth t) as [ms|sg s].
  - destruct ms as [|m ms]; [reflexivity|]. apply len_slice_limit in Hmaps.
    unfold V.len in *. rewrite proj_maps_length, Hmaps. reflexivity.
  - cbn [C.ok_auth] in Hau. destruct s as [|x s]; [reflexivity|]. exact (agg_signers_of_validate _ Hau).
Qed.

Theorem unmarshal_decodable trim sigv b t :
  C.unmarshal b = Ok t -> VP.decodable (proj trim sigv t) = true.
Proof.
  intros H. destruct (CT.unmarshal_inv _ _ H) as (Hsz & Hdec & Henc).
  destruct (CT.enc_tx_ok _ _ Henc) as (Hv & Hok & ->).
  destruct (dec_tx_counts _ _ Hdec) as (Hkeys & Hrefs & Hmaps).
  unfold C.ok_tx in Hok.
  apply andb_prop in Hok as [[[[[[Hil%N.leb_le Hif]%andb_prop Hol%N.leb_le]%andb_prop Hof]%andb_prop _]%andb_prop
                               Hex%N.leb_le]%andb_prop Hau].
  unfold VP.decodable. cbn [proj V.t_version V.t_inputs V.t_outputs V.t_refs V.t_extra].
  repeat (apply andb_true_intro; split).
  - rewrite Hv. reflexivity.
  - rewrite <- (len_slice_limit _ Hil). unfold V.len. rewrite map_length. reflexivity.
  - rewrite forallb_forall in Hif. apply forallb_forall. intros x (i & <- & Hi)%in_map_iff.
    exact (dec_input_of_ok trim i (Hif i Hi)).
  - rewrite <- (len_slice_limit _ Hol). unfold V.len. rewrite map_length. reflexivity.
  - rewrite forallb_forall in Hof. rewrite Forall_forall in Hkeys.
    apply forallb_forall. intros x (o & <- & Ho)%in_map_iff. exact (dec_output_of_ok o (Hof o Ho) (Hkeys o Ho)).
  - exact (len_slice_limit _ Hrefs).
  - rewrite CP.extra_cap_val in Hex. rewrite len_blen, VP.extra_capacity_val. clear - Hex. lia.
  - pose proof (payload_size_le trim sigv t) as P.
    change C.tx_max_size with 4194304%N in Hsz.
    unfold Consts.ValTransactionMaximumSize. rewrite len_blen in P. clear - P Hsz. lia.
  - exact (dec_sigs_of_ok trim sigv t Hau Hmaps).
Qed.

(* C05 over byte strings: whatever decodes validates without a panic *)
Theorem no_panic_bytes trim sigv b t v f h ts fork :
  C.unmarshal b = Ok t -> VP.ledger_inv v ts ->
  V.validate v f h ts fork (proj trim sigv t) <> Panic.
Proof.
  intros H L. apply VP.no_panic; [exact (unmarshal_decodable trim sigv b t H)|exact L].
Qed.
