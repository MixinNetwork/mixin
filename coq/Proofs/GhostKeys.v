(* Lemmas about association lists and the output key bindings (Model/GhostKeys.v). *)
From Coq Require Import List NArith Bool.
Require Import Mixin.Base.Res Mixin.Model.GhostKeys
               Mixin.Proofs.Res Mixin.Proofs.Lists.
Import ListNotations.
Open Scope N_scope.

Section AssocFacts.
  Context {K V : Type} (eqb : K -> K -> bool).
  Hypothesis eqb_eq : forall a b, eqb a b = true <-> a = b.

  Lemma eqb_reflect : forall a b, reflect (a = b) (eqb a b).
  Proof. intros a b. apply iff_reflect. symmetry. apply eqb_eq. Qed.

  Lemma afind_aset : forall k v k0 (m : list (K * V)),
    afind eqb k0 (aset eqb k v m) = if eqb k0 k then Some v else afind eqb k0 m.
  Proof.
    intros k v k0 m. induction m as [|[k' v'] m IH]; cbn; [reflexivity|].
    destruct (eqb_reflect k k') as [<-|Hne]; cbn.
    - destruct (eqb k0 k); reflexivity.
    - rewrite IH. destruct (eqb_reflect k0 k') as [->|]; [|reflexivity].
      destruct (eqb_reflect k' k); [congruence|reflexivity].
  Qed.

  Lemma aset_keeps : forall k v k0 w (m : list (K * V)),
    afind eqb k0 m = Some w -> (afind eqb k m = Some w -> v = w) ->
    afind eqb k0 (aset eqb k v m) = Some w.
  Proof.
    intros k v k0 w m H0 Hk. rewrite afind_aset.
    destruct (eqb_reflect k0 k) as [->|]; [rewrite (Hk H0); reflexivity|exact H0].
  Qed.

  Lemma aset_id : forall k v (m : list (K * V)), afind eqb k m = Some v -> aset eqb k v m = m.
  Proof.
    intros k v m. induction m as [|[k' v'] m IH]; cbn; [discriminate|].
    destruct (eqb k k'); [intros [= ->]; reflexivity|intro H; rewrite (IH H); reflexivity].
  Qed.

  Lemma afind_adel : forall k k0 (m : list (K * V)),
    afind eqb k0 (adel eqb k m) = if eqb k0 k then None else afind eqb k0 m.
  Proof.
    intros k k0 m. induction m as [|[k' v'] m IH]; cbn; [destruct (eqb k0 k); reflexivity|].
    destruct (eqb_reflect k k') as [<-|Hne]; cbn; rewrite IH.
    - destruct (eqb k0 k); reflexivity.
    - destruct (eqb_reflect k0 k') as [->|]; [|reflexivity].
      destruct (eqb_reflect k' k); [congruence|reflexivity].
  Qed.

  Lemma afind_adel_other : forall k k0 (m : list (K * V)),
    k0 <> k -> afind eqb k0 (adel eqb k m) = afind eqb k0 m.
  Proof.
    intros k k0 m Hne. rewrite afind_adel. destruct (eqb_reflect k0 k); [contradiction|reflexivity].
  Qed.

  Lemma afind_some_in : forall k v (m : list (K * V)), afind eqb k m = Some v -> In (k, v) m.
  Proof.
    intros k v m. induction m as [|[k' v'] m IH]; cbn; [discriminate|].
    destruct (eqb_reflect k k') as [<-|]; [intros [= ->]; left; reflexivity|right; auto].
  Qed.

  Lemma afind_none_notin : forall k (m : list (K * V)),
    afind eqb k m = None <-> ~ In k (map fst m).
  Proof.
    intros k m. induction m as [|[k' v'] m IH]; cbn; [tauto|].
    destruct (eqb_reflect k k') as [->|Hne].
    - split; [discriminate|intro H; elim H; left; reflexivity].
    - rewrite IH. split; [intros H [E|H1]; [exact (Hne (eq_sym E))|exact (H H1)]|].
      intros H H1. exact (H (or_intror H1)).
  Qed.

  Lemma nodup_functional : forall k v1 v2 (m : list (K * V)),
    NoDup (map fst m) -> In (k, v1) m -> In (k, v2) m -> v1 = v2.
  Proof.
    intros k v1 v2 m Hnd H1 H2.
    pose proof (NoDup_map_inj fst m _ _ Hnd H1 H2 eq_refl) as [= ->]. reflexivity.
  Qed.

  Lemma keys_aset : forall k v (m : list (K * V)),
    map fst (aset eqb k v m) =
    match afind eqb k m with Some _ => map fst m | None => map fst m ++ [k] end.
  Proof.
    intros k v m. induction m as [|[k' v'] m IH]; cbn; [reflexivity|].
    destruct (eqb k k'); cbn; [reflexivity|]. rewrite IH. destruct (afind eqb k m); reflexivity.
  Qed.

  Lemma nodup_aset : forall k v (m : list (K * V)),
    NoDup (map fst m) -> NoDup (map fst (aset eqb k v m)).
  Proof.
    intros k v m Hnd. rewrite keys_aset. destruct (afind eqb k m) eqn:E; [exact Hnd|].
    apply NoDup_snoc; [exact Hnd|]. apply afind_none_notin. exact E.
  Qed.

  Lemma keys_adel : forall k (m : list (K * V)),
    map fst (adel eqb k m) = filter (fun k' => negb (eqb k k')) (map fst m).
  Proof.
    intros k m. induction m as [|[k' v'] m IH]; cbn; [reflexivity|].
    destruct (eqb k k'); cbn; rewrite IH; reflexivity.
  Qed.

  Lemma nodup_adel : forall k (m : list (K * V)),
    NoDup (map fst m) -> NoDup (map fst (adel eqb k m)).
  Proof. intros k m Hnd. rewrite keys_adel. apply NoDup_filter. exact Hnd. Qed.

  Lemma in_aset : forall k v x (m : list (K * V)),
    In x (aset eqb k v m) -> In x m \/ snd x = v.
  Proof.
    intros k v x m. induction m as [|[k' v'] m IH]; cbn.
    - intros [H|[]]. right. subst x. reflexivity.
    - destruct (eqb k k'); cbn.
      + intros [H|H]; [right; subst x; reflexivity|left; right; exact H].
      + intros [H|H]; [left; left; exact H|].
        destruct (IH H) as [H1|H1]; [left; right; exact H1|right; exact H1].
  Qed.
End AssocFacts.

Lemma memN_in : forall x l, memN x l = true <-> In x l.
Proof.
  intros x l. induction l as [|y l IH]; cbn.
  - split; [discriminate|intros []].
  - rewrite orb_true_iff, IH, N.eqb_eq. split; intros [H|H]; auto.
Qed.

Lemma memN_false : forall x l, memN x l = false <-> ~ In x l.
Proof. intros x l. rewrite <- memN_in. symmetry. apply not_true_iff_false. Qed.

Global Arguments is_exception : simpl never.

Definition bound (g : ghosts) (k t : N) : Prop := afind N.eqb k g = Some t.

(* The only change a lock ever makes to the bindings is to bind a key that has
   none.  A property of the bindings that survives this survives every call. *)
Definition bind_stable (P : ghosts -> Prop) : Prop :=
  forall g k tx, afind N.eqb k g = None -> P g -> P (aset N.eqb k tx g).

Lemma bound_bind_stable : forall k t, bind_stable (fun g => bound g k t).
Proof.
  intros k t g k0 tx E H. apply (aset_keeps N.eqb N.eqb_eq); [exact H|]. congruence.
Qed.

Lemma nodup_bind_stable : bind_stable (fun g => NoDup (map fst g)).
Proof. intros g k tx _. apply nodup_aset. exact N.eqb_eq. Qed.

Lemma lock_ghost_key_ok : forall g k tx f g', lock_ghost_key g k tx f = Ok g' ->
  (afind N.eqb k g = None /\ g' = aset N.eqb k tx g) \/
  (g' = g /\ exists b, bound g k b /\ (b = tx \/ f && is_exception tx = true)).
Proof.
  unfold lock_ghost_key, bound. intros g k tx f g' H.
  destruct (afind N.eqb k g) as [b|]; [right|injection H as <-; left; auto].
  destruct (b =? 0); [discriminate|]. destruct (f && is_exception tx).
  - injection H as <-. eauto.
  - destruct (N.eqb_spec b tx); [injection H as <-; eauto|discriminate].
Qed.

Lemma lock_ghost_key_not_panic : forall g k tx f, lock_ghost_key g k tx f <> Panic.
Proof.
  unfold lock_ghost_key. intros g k tx f.
  destruct (afind N.eqb k g) as [b|]; [|discriminate].
  destruct (b =? 0); [discriminate|].
  destruct (f && is_exception tx); [discriminate|].
  destruct (b =? tx); discriminate.
Qed.

Lemma lock_ghost_key_foreign : forall g k tx f t,
  bound g k t -> t <> tx -> f && is_exception tx = false ->
  lock_ghost_key g k tx f = Err.
Proof.
  unfold lock_ghost_key, bound. intros g k tx f t Hb Hne Hex. rewrite Hb.
  destruct (t =? 0); [reflexivity|]. rewrite Hex.
  destruct (N.eqb_spec t tx); [contradiction|reflexivity].
Qed.

Lemma lock_ghost_key_exception : forall g k tx t,
  bound g k t -> t <> 0 -> is_exception tx = true -> lock_ghost_key g k tx true = Ok g.
Proof.
  unfold lock_ghost_key, bound. intros g k tx t Hb Hz Hex. rewrite Hb.
  destruct (N.eqb_spec t 0); [contradiction|]. rewrite Hex. reflexivity.
Qed.

Lemma lock_ghost_key_binds : forall g k tx f g',
  lock_ghost_key g k tx f = Ok g' ->
  bound g' k tx \/ (f = true /\ is_exception tx = true /\ exists t, bound g k t /\ bound g' k t).
Proof.
  intros g k tx f g' H. apply lock_ghost_key_ok in H as [[_ ->]|[-> (b & Hb & [->|Hex])]].
  - left. unfold bound. rewrite (afind_aset N.eqb N.eqb_eq), N.eqb_refl. reflexivity.
  - left. exact Hb.
  - right. apply andb_true_iff in Hex as [-> ->]. eauto.
Qed.

Section Stable.
  Variable P : ghosts -> Prop.
  Hypothesis HP : bind_stable P.

  Lemma lock_ghost_key_stable : forall g k tx f g',
    lock_ghost_key g k tx f = Ok g' -> P g -> P g'.
  Proof.
    intros g k tx f g' H Hg.
    apply lock_ghost_key_ok in H as [[E ->]|[-> _]]; [apply HP; assumption|exact Hg].
  Qed.

  Lemma lock_ghost_keys_from_stable : forall ks seen g tx f g',
    lock_ghost_keys_from seen g ks tx f = Ok g' -> P g -> P g'.
  Proof.
    induction ks as [|k ks IH]; cbn; intros seen g tx f g' H Hg.
    - injection H as <-. exact Hg.
    - destruct (memN k seen); [discriminate|]. apply bind_ok in H as (g1 & E & H).
      eapply IH; [exact H|]. eapply lock_ghost_key_stable; eassumption.
  Qed.

  Lemma relock_keys_stable : forall ks g tx g', relock_keys g ks tx = Ok g' -> P g -> P g'.
  Proof.
    induction ks as [|k ks IH]; cbn; intros g tx g' H Hg.
    - injection H as <-. exact Hg.
    - apply bind_ok in H as (g1 & E & H).
      eapply IH; [exact H|]. eapply lock_ghost_key_stable; eassumption.
  Qed.
End Stable.

Lemma lock_ghost_keys_from_not_panic : forall ks seen g tx f,
  lock_ghost_keys_from seen g ks tx f <> Panic.
Proof.
  induction ks as [|k ks IH]; cbn; intros seen g tx f; [discriminate|].
  destruct (memN k seen); [discriminate|].
  apply bind_not_panic; [apply lock_ghost_key_not_panic|intros; apply IH].
Qed.

Lemma relock_keys_not_panic : forall ks g tx, relock_keys g ks tx <> Panic.
Proof.
  induction ks as [|k ks IH]; cbn; intros g tx; [discriminate|].
  apply bind_not_panic; [apply lock_ghost_key_not_panic|intros; apply IH].
Qed.

Lemma lock_ghost_keys_from_foreign : forall ks seen g tx f k t,
  In k ks -> bound g k t -> t <> tx -> f && is_exception tx = false ->
  lock_ghost_keys_from seen g ks tx f = Err.
Proof.
  induction ks as [|k0 ks IH]; cbn; intros seen g tx f k t Hin Hb Hne Hex; [contradiction|].
  destruct (memN k0 seen); [reflexivity|].
  destruct Hin as [->|Hin]; [rewrite (lock_ghost_key_foreign g k tx f t Hb Hne Hex); reflexivity|].
  apply bind_err; [apply lock_ghost_key_not_panic|]. intros g1 E.
  apply (IH _ _ _ _ k t Hin); [|exact Hne|exact Hex].
  (* the foreign binding is still there when the loop reaches its key *)
  exact (lock_ghost_key_stable _ (bound_bind_stable k t) _ _ _ _ _ E Hb).
Qed.

Lemma relock_keys_foreign : forall ks g tx k t,
  In k ks -> bound g k t -> t <> tx -> is_exception tx = false ->
  relock_keys g ks tx = Err.
Proof.
  induction ks as [|k0 ks IH]; cbn; intros g tx k t Hin Hb Hne Hex; [contradiction|].
  destruct Hin as [->|Hin]; [rewrite (lock_ghost_key_foreign g k tx true t Hb Hne Hex); reflexivity|].
  apply bind_err; [apply lock_ghost_key_not_panic|]. intros g1 E.
  apply (IH _ _ k t Hin); [|exact Hne|exact Hex].
  exact (lock_ghost_key_stable _ (bound_bind_stable k t) _ _ _ _ _ E Hb).
Qed.

(* The filter of validateOutputs.  [rev seen ++ ks], the keys met so far followed
   by those still to come, is the same list at every step of the loop: the
   filter passes iff it has no duplicate. *)
Lemma vo_keys_from_nodup : forall ks seen,
  NoDup (rev seen ++ ks) -> vo_keys_from seen ks = Ok ks.
Proof.
  induction ks as [|k ks IH]; cbn; intros seen H; [reflexivity|].
  assert (Em : memN k seen = false).
  { apply memN_false. intro Hi. apply (NoDup_remove_2 _ _ _ H).
    apply in_or_app. left. apply in_rev in Hi. exact Hi. }
  rewrite Em, IH; [reflexivity|]. cbn. rewrite <- app_assoc. exact H.
Qed.

Lemma vo_keys_from_dup : forall ks seen,
  NoDup seen -> ~ NoDup (rev seen ++ ks) -> vo_keys_from seen ks = Err.
Proof.
  induction ks as [|k ks IH]; cbn; intros seen Hs H.
  - contradiction H. rewrite app_nil_r. apply NoDup_rev. exact Hs.
  - destruct (memN k seen) eqn:Em; [reflexivity|].
    rewrite IH; [reflexivity| |cbn; rewrite <- app_assoc; exact H].
    constructor; [apply memN_false; exact Em|exact Hs].
Qed.

(* LockGhostKeys applies the same filter on its own *)
Lemma lock_ghost_keys_from_filter : forall ks seen g tx f,
  vo_keys_from seen ks = Err -> lock_ghost_keys_from seen g ks tx f = Err.
Proof.
  induction ks as [|k ks IH]; cbn; intros seen g tx f H; [discriminate|].
  destruct (memN k seen); [reflexivity|].
  destruct (vo_keys_from (k :: seen) ks) eqn:E; try discriminate H.
  apply bind_err; [apply lock_ghost_key_not_panic|intros; apply IH; exact E].
Qed.

Lemma lock_ghost_keys_from_exception : forall ks seen r g tx,
  is_exception tx = true -> vo_keys_from seen ks = Ok r ->
  (forall k, In k ks -> exists t, bound g k t /\ t <> 0) ->
  lock_ghost_keys_from seen g ks tx true = Ok g.
Proof.
  induction ks as [|k ks IH]; cbn; intros seen r g tx Hex Hv Hb; [reflexivity|].
  destruct (memN k seen); [discriminate|]. apply bind_ok in Hv as (r' & Hv & _).
  destruct (Hb k (or_introl eq_refl)) as (t & Ht & Hz).
  rewrite (lock_ghost_key_exception g k tx t Ht Hz Hex). cbn. eauto.
Qed.
