(* Lemmas about Model/Auth.v: the byte layout, the float64 clock-skew test as an
   integer test, the decision as one conjunction, the message fields given the
   bytes around the relayer flag; then the fixture of the C30 examples. *)
From Coq Require Import List ZArith NArith Bool Lia.
Require Import Mixin.Base.Res Mixin.Gen.Consts Mixin.Model.Auth Mixin.Proofs.Lists.
Import ListNotations.
Open Scope Z_scope.

Lemma layout : ts_size = 8%nat /\ off_rcp = 8%nat /\ off_key = 40%nat /\ off_flag = 72%nat /\
               off_sig = 73%nat /\ msg_len = 137%nat.
Proof. repeat split; reflexivity. Qed.

(* the 137 that AuthenticateAs tests the length against is the sum of the sizes of
   the fields BuildAuthenticationMessage appends *)
Lemma layout_consistent :
  Consts.AuthTimestampSize + Consts.AuthHashSize + Consts.AuthKeySize + 1 + Consts.AuthSignatureSize
  = Consts.AuthMsgLen.
Proof. reflexivity. Qed.

(* All that [skew_exact] uses of float64 rounding: it is the identity below
   2^53 and maps what is at or above 2^53 to at or above 2^53. *)
Lemma round53_pos_small : forall x, x < 2 ^ 53 -> round53_pos x = x.
Proof. intros x H. unfold round53_pos. apply Z.ltb_lt in H. rewrite H. reflexivity. Qed.

Lemma round53_small : forall x, - 2 ^ 53 < x < 2 ^ 53 -> round53 x = x.
Proof.
  intros x H. unfold round53. destruct (x <? 0) eqn:E; rewrite round53_pos_small by lia; lia.
Qed.

Lemma round53_pos_big : forall x, 2 ^ 53 <= x -> 2 ^ 53 <= round53_pos x.
Proof.
  intros x H. unfold round53_pos. rewrite (proj2 (Z.ltb_ge x (2 ^ 53)) H).
  (* the result is q * 2^e or (q+1) * 2^e with q = x / 2^e >= 2^52 *)
  assert (Hlog : 53 <= Z.log2 x) by (apply Z.log2_le_pow2; lia).
  set (e := Z.log2 x - 52).
  assert (Hpe : 0 < 2 ^ e) by (apply Z.pow_pos_nonneg; lia).
  assert (Hsplit : 2 ^ Z.log2 x = 2 ^ 52 * 2 ^ e) by (rewrite <- Z.pow_add_r by lia; f_equal; lia).
  assert (Hq : 2 ^ 52 <= x / 2 ^ e).
  { apply Z.div_le_lower_bound; [lia|]. rewrite Z.mul_comm, <- Hsplit. apply Z.log2_spec. lia. }
  assert (Hbig : 2 ^ 53 <= 2 ^ 52 * 2 ^ e) by (rewrite <- Hsplit; apply Z.pow_le_mono_r; lia).
  assert (Hmul : 2 ^ 52 * 2 ^ e <= x / 2 ^ e * 2 ^ e) by (apply Z.mul_le_mono_nonneg_r; lia).
  destruct (x mod 2 ^ e <? 2 ^ (e - 1)); [lia|].
  destruct (2 ^ (e - 1) <? x mod 2 ^ e); [lia|].
  destruct (Z.even (x / 2 ^ e)); lia.
Qed.

(* [now] and [timeout] are in seconds (clock.Now().Unix(), timeoutSec), so 2^52
   covers every real clock; [ts] is the peer's and may be any uint64 *)
Lemma skew_exact : forall now ts timeout,
  0 <= now < 2 ^ 52 -> 0 <= ts -> 0 <= timeout < 2 ^ 52 ->
  skew_exceeds now ts timeout = (timeout <? Z.abs (now - ts)).
Proof.
  intros now ts timeout Hnow Hts Ht. unfold skew_exceeds.
  assert (P52 : 2 ^ 53 = 2 * 2 ^ 52) by reflexivity.
  rewrite (round53_small timeout), (round53_small now) by lia.
  destruct (Z_lt_le_dec ts (2 ^ 53)) as [Hs|Hs].
  - rewrite (round53_small ts), (round53_small (now - ts)) by lia. reflexivity.
  - (* ts >= 2^53 > 2.now: the exact difference and the difference of the
       rounded values are both below -2^52, so both tests hold *)
    assert (HR : 2 ^ 53 <= round53 ts).
    { unfold round53. rewrite (proj2 (Z.ltb_ge ts 0) Hts). apply round53_pos_big, Hs. }
    set (R := round53 ts) in *. unfold round53. rewrite (proj2 (Z.ltb_lt (now - R) 0)) by lia.
    assert (Hh : 2 ^ 52 <= round53_pos (- (now - R))).
    { destruct (Z_lt_le_dec (- (now - R)) (2 ^ 53)) as [Hd|Hd];
        [rewrite round53_pos_small by exact Hd | apply round53_pos_big in Hd]; lia. }
    rewrite (proj2 (Z.ltb_lt timeout _)), (proj2 (Z.ltb_lt timeout _)) by lia. reflexivity.
Qed.

Definition msg_ts (msg : list N) : Z := Z.of_N (be_val (firstn ts_size msg)).
Definition msg_rcp (msg : list N) : N := be_val (slice off_rcp off_key msg).
Definition msg_key (msg : list N) : N := be_val (slice off_key off_flag msg).
Definition msg_sig (msg : list N) : N := be_val (slice off_sig msg_len msg).
Definition msg_signed (msg : list N) : list N := firstn off_sig msg.
Definition msg_flag (msg : list N) : bool := (nth off_flag msg 0 =? 1)%N.

Lemma slice_app_l : forall i j (l1 l2 : list N), (j <= length l1)%nat -> slice i j (l1 ++ l2) = slice i j l1.
Proof.
  intros i j l1 l2 Hj. unfold slice. rewrite skipn_app, firstn_app, skipn_length.
  replace (j - i - (length l1 - i))%nat with 0%nat by lia. apply app_nil_r.
Qed.

Section AuthProofs.
  Variable Hmsg : list N -> N.
  Variable peer_id : N -> N -> N.
  Variable verify : N -> N -> N -> bool.

  Lemma auth_eq : forall net rcp msg timeout now,
    authenticate Hmsg peer_id verify net rcp msg timeout now =
    if Nat.eqb (length msg) msg_len && negb ((0 <? timeout) && skew_exceeds now (msg_ts msg) timeout)
       && (msg_rcp msg =? rcp)%N && negb (peer_id net (msg_key msg) =? rcp)%N
       && verify (msg_key msg) (Hmsg (msg_signed msg)) (msg_sig msg)
    then Ok (mk_token (peer_id net (msg_key msg)) (msg_ts msg) (msg_flag msg) msg) else Err.
  Proof.
    intros. unfold authenticate.
    fold (msg_ts msg) (msg_rcp msg) (msg_key msg) (msg_sig msg) (msg_signed msg) (msg_flag msg).
    destruct (Nat.eqb (length msg) msg_len); [|reflexivity].
    destruct ((0 <? timeout) && skew_exceeds now (msg_ts msg) timeout); [reflexivity|].
    destruct (msg_rcp msg =? rcp)%N; [|reflexivity].
    destruct (peer_id net (msg_key msg) =? rcp)%N; [reflexivity|].
    destruct (verify (msg_key msg) (Hmsg (msg_signed msg)) (msg_sig msg)); reflexivity.
  Qed.

  Lemma auth_ok_iff_raw : forall net rcp msg timeout now tok,
    authenticate Hmsg peer_id verify net rcp msg timeout now = Ok tok <->
    (length msg = msg_len /\
     ((0 <? timeout) && skew_exceeds now (msg_ts msg) timeout = false) /\
     msg_rcp msg = rcp /\
     peer_id net (msg_key msg) <> rcp /\
     verify (msg_key msg) (Hmsg (msg_signed msg)) (msg_sig msg) = true /\
     tok = mk_token (peer_id net (msg_key msg)) (msg_ts msg) (msg_flag msg) msg).
  Proof.
    intros net rcp msg timeout now tok. rewrite auth_eq. destruct (_ && _) eqn:E.
    - rewrite !andb_true_iff, !negb_true_iff, Nat.eqb_eq, N.eqb_eq, N.eqb_neq in E.
      split; [intros [= <-]; repeat split; apply E | intros (_ & _ & _ & _ & _ & ->); reflexivity].
    - split; [discriminate|]. intros (E1 & E2 & E3 & E4 & E5 & _). apply not_true_iff_false in E. destruct E.
      rewrite !andb_true_iff, !negb_true_iff, Nat.eqb_eq, N.eqb_eq, N.eqb_neq. tauto.
  Qed.

  Lemma skew_ok_iff : forall now ts timeout,
    0 <= now < 2 ^ 52 -> 0 <= ts -> timeout < 2 ^ 52 ->
    ((0 <? timeout) && skew_exceeds now ts timeout = false <->
     (0 < timeout -> Z.abs (now - ts) <= timeout)).
  Proof.
    intros now ts timeout Hn Hts Ht.
    destruct (Z.ltb_spec 0 timeout) as [E|E]; cbn [andb]; [|split; [lia | reflexivity]].
    rewrite skew_exact, Z.ltb_ge by lia. tauto.
  Qed.

  Section Flag.
    Variables (pre suf : list N) (f : N).
    Hypothesis Lpre : length pre = off_flag.
    Let m := pre ++ f :: suf.

    Lemma flag_key : msg_key m = be_val (slice off_key off_flag pre).
    Proof. unfold msg_key, m. rewrite slice_app_l by (rewrite Lpre; reflexivity). reflexivity. Qed.

    Lemma flag_rcp : msg_rcp m = be_val (firstn (off_key - off_rcp) (skipn off_rcp pre)).
    Proof. unfold msg_rcp, m. rewrite slice_app_l by (rewrite Lpre; apply Nat.leb_le; reflexivity). reflexivity. Qed.

    Lemma flag_ts : msg_ts m = Z.of_N (be_val (firstn ts_size pre)).
    Proof. unfold msg_ts, m. rewrite firstn_app, Lpre. apply (f_equal (fun l => Z.of_N (be_val l))), app_nil_r. Qed.

    Lemma flag_sig : msg_sig m = be_val (firstn (msg_len - off_sig) suf).
    Proof.
      unfold msg_sig, slice, m. change (pre ++ f :: suf) with (pre ++ [f] ++ suf).
      rewrite app_assoc, skipn_exact; [reflexivity|]. rewrite app_length, Lpre. reflexivity.
    Qed.

    Lemma flag_signed : msg_signed m = pre ++ [f].
    Proof.
      unfold msg_signed, m. change (pre ++ f :: suf) with (pre ++ [f] ++ suf).
      rewrite app_assoc. apply firstn_exact. rewrite app_length, Lpre. reflexivity.
    Qed.

    Lemma flag_flag : msg_flag m = (f =? 1)%N.
    Proof. unfold msg_flag, m. rewrite <- Lpre. rewrite nth_middle. reflexivity. Qed.
  End Flag.
End AuthProofs.

Fixpoint ex_bytes_eqb (a b : list N) : bool :=
  match a, b with
  | [], [] => true
  | x :: a', y :: b' => (x =? y)%N && ex_bytes_eqb a' b'
  | _, _ => false
  end.

Lemma ex_bytes_eqb_eq : forall a b, ex_bytes_eqb a b = true -> a = b.
Proof.
  induction a as [|x a IH]; destruct b as [|y b]; cbn [ex_bytes_eqb]; intro H; try reflexivity; try discriminate.
  apply andb_true_iff in H. destruct H as [H1 H2]. apply N.eqb_eq in H1. apply IH in H2. subst. reflexivity.
Qed.

(* time 0, recipient 5, key 9, relayer flag 1, signature 7 *)
Definition ex_pre : list N := repeat 0%N 8 ++ (repeat 0%N 31 ++ [5%N]) ++ (repeat 0%N 31 ++ [9%N]).
Definition ex_suf : list N := repeat 0%N 63 ++ [7%N].
Definition ex_msg (flag : N) : list N := ex_pre ++ flag :: ex_suf.
Definition ex_H (a : list N) : N := if ex_bytes_eqb a (ex_pre ++ [1%N]) then 42%N else 0%N.
Definition ex_peer (n k : N) : N := (k + 100)%N.
Definition ex_verify (k h s : N) : bool := (k =? 9)%N && (h =? 42)%N && (s =? 7)%N.
