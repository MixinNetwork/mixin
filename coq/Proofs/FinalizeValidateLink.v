(* A transaction accepted by V.validate (C01) against a view of a finalization state
   satisfies PF.valid_tx (C15/C17), given the two facts validation cannot know: the
   hash is not zero; its inputs are locked by it (C03). *)
From Coq Require Import List ZArith NArith Bool Lia ZifyN ZifyNat ZifyBool.
Require Import Mixin.Base.Res Mixin.Gen.Consts Mixin.Model.Fixed.
Require Mixin.Model.Validate Mixin.Proofs.Validate Mixin.Model.Finalize Mixin.Proofs.Finalize.
Import ListNotations.
Open Scope Z_scope.

Module V := Mixin.Model.Validate.
Module PV := Mixin.Proofs.Validate.
Module F := Mixin.Model.Finalize.
Module PF := Mixin.Proofs.Finalize.

Lemma ot_script_eq : V.ot_script = F.ot_script. Proof. reflexivity. Qed.
Lemma ot_submit_eq : V.ot_wsubmit = F.ot_submit. Proof. reflexivity. Qed.
Lemma ot_claim_eq : V.ot_wclaim = F.ot_claim. Proof. reflexivity. Qed.
Lemma ot_pledge_eq : V.ot_pledge = F.ot_pledge. Proof. reflexivity. Qed.
Lemma ot_accept_eq : V.ot_accept = F.ot_accept. Proof. reflexivity. Qed.
Lemma ot_remove_eq : V.ot_remove = F.ot_remove. Proof. reflexivity. Qed.
Lemma ot_cancel_eq : V.ot_cancel = F.ot_cancel. Proof. reflexivity. Qed.
Lemma ot_cupdate_eq : V.ot_cupdate = F.ot_custodian. Proof. reflexivity. Qed.
Lemma ot_cslash_eq : V.ot_cslash = F.ot_slash. Proof. reflexivity. Qed.

(* Z.to_N loses nothing on an index that resolves: vo_utxo gives 0 <= i *)
Definition proj_input (i : V.input) : F.input :=
  match V.i_mint i with
  | Some m => F.IMint (V.m_amount m)
  | None =>
      match V.i_deposit i with
      | Some d => F.IDeposit (V.d_chain d) (V.be_N (V.d_key d)) (V.d_amount d)
      | None =>
          match V.i_genesis i with
          | Some _ => F.IGenesis
          | None => F.IOrd (V.i_hash i) (Z.to_N (V.i_index i))
          end
      end
  end.

Definition proj_output (o : V.output) : F.output :=
  {| F.o_type := V.o_type o; F.o_amount := V.o_amount o; F.o_keys := V.o_keys o |}.

(* t' is t as the store holds it under payload hash h (extra, references and the
   parsed custodian data of t' are not constrained) *)
Definition related (t : V.tx) (h : N) (t' : F.tx) : Prop :=
  F.t_hash t' = h /\ F.t_asset t' = V.t_asset t /\
  F.t_inputs t' = map proj_input (V.t_inputs t) /\
  F.t_outputs t' = map proj_output (V.t_outputs t).

(* vo_tx belongs to the correspondence but no proof below reads it; [view_from]
   meets it with a view that shows no stored transaction *)
Record view_of (s : F.state) (v : V.view) : Prop := {
  (* ReadUTXOLock returns the output record of the state: amount, asset, type, lock holder *)
  vo_utxo : forall h i u, V.v_utxo v h i = Some u ->
    0 <= i /\ exists u', F.lookup F.eq2 (F.s_utxo s) (h, Z.to_N i) = Some u' /\
      F.u_amount u' = V.u_amount u /\ F.u_asset u' = V.u_asset u /\
      F.u_lock u' = V.u_lock u /\ F.u_type u' = V.u_type u;
  (* ReadTransaction returns a stored transaction with its finalization flag *)
  vo_tx : forall h st, V.v_tx v h = Some st ->
    F.mem F.eq1 (F.s_txs s) h = true /\ V.s_final st = F.finalized s h
}.

Definition class_of (ty : Z) : F.txtype :=
  if ty =? V.ty_mint then F.TyMint else if ty =? V.ty_deposit then F.TyDeposit
  else if ty =? V.ty_script then F.TyScript else if ty =? V.ty_wsubmit then F.TySubmit
  else if ty =? V.ty_wclaim then F.TyClaim
  else if (ty =? V.ty_pledge) || (ty =? V.ty_cancel) || (ty =? V.ty_accept) || (ty =? V.ty_remove) then F.TyNode
  else if (ty =? V.ty_cupdate) || (ty =? V.ty_cslash) then F.TyCustodian
  else F.TyUnknown.

Lemma type_of_inputs_proj ins :
  F.type_of_inputs (map proj_input ins) = option_map class_of (V.input_type ins).
Proof.
  induction ins as [|i r IH]; [reflexivity|]. cbn [map V.input_type F.type_of_inputs]. unfold proj_input.
  destruct (V.i_mint i); [reflexivity|]. destruct (V.i_deposit i); [reflexivity|].
  destruct (V.i_genesis i); [reflexivity|exact IH].
Qed.

Lemma type_of_outputs_proj outs : forall b,
  F.type_of_outputs (map proj_output outs) b = class_of (V.output_type outs b).
Proof.
  induction outs as [|o r IH]; intros b; cbn [map V.output_type F.type_of_outputs]; [destruct b; reflexivity|].
  change (F.o_type (proj_output o)) with (V.o_type o). unfold V.kernel_output_type.
  rewrite <- ot_script_eq, <- ot_submit_eq, <- ot_claim_eq, <- ot_pledge_eq, <- ot_cancel_eq,
    <- ot_accept_eq, <- ot_remove_eq, <- ot_cupdate_eq, <- ot_cslash_eq.
  (* on the first code that matches both sides are closed *)
  repeat (destruct (V.o_type o =? _); [reflexivity|]). apply IH.
Qed.

Lemma tx_type_proj t h t' : related t h t' -> F.tx_type t' = class_of (V.tx_type t).
Proof.
  intros (_ & _ & Ri & Ro). unfold F.tx_type, V.tx_type. rewrite Ri, Ro, type_of_inputs_proj, type_of_outputs_proj.
  destruct (V.input_type (V.t_inputs t)); reflexivity.
Qed.

(* what valid_tx needs of each accepted output: it is no slash output (v_noslash),
   and a submit output only in a withdrawal submission (v_shape) *)
Definition shape_ok (t : V.tx) (o : V.output) : Prop :=
  V.o_type o <> V.ot_cslash /\ (V.tx_type t <> V.ty_wsubmit -> V.o_type o <> V.ot_wsubmit).

Lemma script_shape t outs : forallb (fun o => V.o_type o =? V.ot_script) outs = true ->
  Forall (shape_ok t) outs.
Proof.
  intros H. rewrite forallb_forall in H. apply Forall_forall. intros o Ho. apply H, Z.eqb_eq in Ho.
  unfold shape_ok. rewrite Ho. split; [|intros _]; discriminate.
Qed.

Lemma input_type_cases ins ty : V.input_type ins = Some ty ->
  ty = V.ty_mint \/ ty = V.ty_deposit \/ ty = V.ty_unknown.
Proof.
  induction ins as [|i r IH]; cbn [V.input_type]; [discriminate|].
  destruct (V.i_mint i); [intros [= <-]; auto|]. destruct (V.i_deposit i); [intros [= <-]; auto|].
  destruct (V.i_genesis i); [intros [= <-]; auto|exact IH].
Qed.

Lemma typed_by_outputs t : V.tx_type t <> V.ty_mint -> V.tx_type t <> V.ty_deposit ->
  V.tx_type t <> V.ty_unknown -> V.input_type (V.t_inputs t) = None.
Proof.
  unfold V.tx_type. destruct (V.input_type (V.t_inputs t)) as [x|] eqn:E; [|reflexivity].
  destruct (input_type_cases _ _ E) as [-> | [-> | ->]]; congruence.
Qed.

Lemma output_type_script outs : forall b, V.output_type outs b = V.ty_script ->
  b = true /\ forallb (fun o => V.o_type o =? V.ot_script) outs = true.
Proof.
  induction outs as [|o r IH]; intros b H; cbn [V.output_type forallb] in *.
  - destruct b; [auto|discriminate H].
  - destruct (V.kernel_output_type (V.o_type o)) as [ty|] eqn:Ek.
    + apply PV.kernel_output_type_range in Ek. rewrite H in Ek. cbn [In] in Ek.
      repeat (destruct Ek as [Ek|Ek]; [discriminate Ek|]). destruct Ek.
    + destruct (IH _ H) as [Hb ->]. apply andb_true_iff in Hb. destruct Hb as [-> ->]. auto.
Qed.

Lemma head_tail_shape t : V.tail_all_script (V.t_outputs t) = Ok true ->
  V.input_type (V.t_inputs t) = None -> V.tx_type t <> V.ty_cslash -> Forall (shape_ok t) (V.t_outputs t).
Proof.
  intros Ht Hin Hns. destruct (V.t_outputs t) as [|o r] eqn:Eo; [discriminate Ht|]. injection Ht as Hr.
  constructor; [|exact (script_shape t r Hr)].
  unfold shape_ok, V.tx_type in *. rewrite Hin, Eo in *. cbn [V.output_type] in *.
  (* a slash or submit code at the head would be the type of the transaction *)
  split; [|intros Hty]; intros X; rewrite X in *; auto.
Qed.

Lemma single_output_shape t : (V.len (V.t_outputs t) =? 1) = true ->
  V.input_type (V.t_inputs t) = None -> V.tx_type t <> V.ty_cslash -> Forall (shape_ok t) (V.t_outputs t).
Proof.
  intros El. apply head_tail_shape. destruct (PV.len_one _ (proj1 (Z.eqb_eq _ _) El)) as [o ->]. reflexivity.
Qed.

Theorem accepted_output_shapes : forall v f h ts fork t,
  V.validate v f h ts fork t = Ok tt -> Forall (shape_ok t) (V.t_outputs t).
Proof.
  intros v f h ts fork t H.
  destruct (PV.validate_ok_inv _ _ _ _ _ _ H) as (flt & a & Hp & _ & _ & _ & _ & Hd).
  pose proof (PV.precheck_not_unknown _ _ Hp) as Hunk.
  assert (Hns : V.tx_type t <> V.ty_cslash) by (intros X; rewrite X in Hd; discriminate Hd).
  (* the cases follow V.dispatch; script, mint and deposit come first because
     with them excluded the type is decided by the outputs (Hin) *)
  unfold V.dispatch in Hd.
  destruct (Z.eqb_spec (V.tx_type t) V.ty_script) as [E1|_].
  { apply script_shape. pose proof E1 as E. unfold V.tx_type in E.
    rewrite (typed_by_outputs t) in E by (rewrite E1; discriminate). exact (proj2 (output_type_script _ _ E)). }
  destruct (Z.eqb_spec (V.tx_type t) V.ty_mint) as [_|E2].
  { unfold V.validate_mint in Hd. destruct (negb (V.len (V.t_inputs t) =? 1)); [discriminate Hd|].
    destruct (forallb _ (V.t_outputs t)) eqn:Es; [|discriminate Hd]. exact (script_shape t _ Es). }
  destruct (Z.eqb_spec (V.tx_type t) V.ty_deposit) as [_|E3].
  { unfold V.validate_deposit in Hd. destruct (negb (V.len (V.t_inputs t) =? 1)); [discriminate Hd|].
    destruct (V.len (V.t_outputs t) =? 1) eqn:El; [|discriminate Hd]. cbn [negb] in Hd.
    destruct (PV.len_one _ (proj1 (Z.eqb_eq _ _) El)) as [o Eo]. rewrite Eo in Hd |- *.
    destruct (V.o_type o =? V.ot_script) eqn:Es; [|discriminate Hd].
    apply script_shape. cbn [forallb]. rewrite Es. reflexivity. }
  assert (Hin : V.input_type (V.t_inputs t) = None).
  { apply typed_by_outputs; auto. intros X. rewrite X in Hunk. discriminate Hunk. }
  destruct (V.tx_type t =? V.ty_wsubmit).
  { unfold V.validate_withdrawal_submit in Hd. destruct (negb (V.all_inputs_type _ _)); [discriminate Hd|].
    destruct (V.tail_all_script (V.t_outputs t)) as [[]| |] eqn:Et; try discriminate Hd.
    exact (head_tail_shape t Et Hin Hns). }
  destruct (V.tx_type t =? V.ty_wclaim).
  { unfold V.validate_withdrawal_claim in Hd. destruct (negb (V.all_inputs_type _ _)); [discriminate Hd|].
    destruct (negb (V.t_asset t =? V.xin)%N); [discriminate Hd|].
    destruct (V.tail_all_script (V.t_outputs t)) as [[]| |] eqn:Et; try discriminate Hd.
    exact (head_tail_shape t Et Hin Hns). }
  destruct (V.tx_type t =? V.ty_pledge).
  { unfold V.validate_node_pledge in Hd. destruct (negb (V.t_asset t =? V.xin)%N); [discriminate Hd|].
    destruct (V.len (V.t_outputs t) =? 1) eqn:El; [|discriminate Hd]. exact (single_output_shape t El Hin Hns). }
  destruct (V.tx_type t =? V.ty_cancel).
  { unfold V.validate_node_cancel in Hd. destruct (negb (V.t_asset t =? V.xin)%N); [discriminate Hd|].
    destruct (V.len (V.t_outputs t) =? 2) eqn:El; [|discriminate Hd]. cbn [negb] in Hd.
    destruct (negb (V.len (V.t_inputs t) =? 1)); [discriminate Hd|].
    destruct (negb (V.single_sig_present (V.t_sigs t))); [discriminate Hd|].
    destruct (negb (V.len (V.t_extra t) =? 96)); [discriminate Hd|].
    destruct (V.t_outputs t) as [|c [|sc [|x r]]] eqn:Eo; try discriminate Hd;
      [|clear - El; unfold V.len in El; cbn [length] in El; lia].
    destruct (V.o_type sc =? V.ot_script) eqn:Es; [|rewrite orb_true_r in Hd; discriminate Hd].
    rewrite <- Eo. apply head_tail_shape; auto. rewrite Eo. cbn [V.tail_all_script forallb]. rewrite Es. reflexivity. }
  destruct (V.tx_type t =? V.ty_accept).
  { unfold V.validate_node_accept in Hd. destruct (negb (V.t_asset t =? V.xin)%N); [discriminate Hd|].
    destruct (V.len (V.t_outputs t) =? 1) eqn:El; [|discriminate Hd]. exact (single_output_shape t El Hin Hns). }
  destruct (V.tx_type t =? V.ty_remove).
  { unfold V.validate_node_remove in Hd. destruct (negb (V.t_asset t =? V.xin)%N); [discriminate Hd|].
    destruct (V.len (V.t_outputs t) =? 1) eqn:El; [|discriminate Hd]. exact (single_output_shape t El Hin Hns). }
  destruct (V.tx_type t =? V.ty_cupdate).
  { unfold V.validate_custodian_update in Hd.
    destruct (V.t_version t <? Consts.ValTxVersionHashSignature); [discriminate Hd|].
    destruct (negb (V.t_asset t =? V.xin)%N); [discriminate Hd|].
    destruct (V.len (V.t_outputs t) =? 1) eqn:El; [|discriminate Hd]. exact (single_output_shape t El Hin Hns). }
  destruct (V.tx_type t =? V.ty_cslash); discriminate Hd.
Qed.

Definition plain (i : V.input) : Prop :=
  V.i_mint i = None /\ V.i_deposit i = None /\ V.i_genesis i = None.
Definition slotN (i : V.input) : N * N := (V.i_hash i, Z.to_N (V.i_index i)).

Lemma input_type_nospecial ins : existsb PV.special ins = false ->
  (V.input_type ins = None /\ Forall plain ins) \/ V.input_type ins = Some V.ty_unknown.
Proof.
  induction ins as [|i r IH]; cbn [V.input_type existsb]; intros H; [auto|].
  apply orb_false_iff in H. destruct H as [Hs Hr]. unfold PV.special in Hs.
  destruct (V.i_mint i) eqn:Em; [discriminate Hs|]. destruct (V.i_deposit i) eqn:Ed; [discriminate Hs|].
  destruct (V.i_genesis i) eqn:Eg; [auto|]. destruct (IH Hr) as [[A B]|A]; [left|auto].
  split; [exact A|]. constructor; [unfold plain; auto|exact B].
Qed.

Lemma proj_special i : PV.special i = true ->
  proj_input i = F.IMint (PV.special_amount i) \/ exists c k, proj_input i = F.IDeposit c k (PV.special_amount i).
Proof.
  unfold PV.special, PV.special_amount, proj_input.
  destruct (V.i_mint i); [auto|]. destruct (V.i_deposit i); [eauto|discriminate].
Qed.

Lemma proj_plain i : plain i -> proj_input i = F.IOrd (V.i_hash i) (Z.to_N (V.i_index i)).
Proof. intros (A & B & C). unfold proj_input. rewrite A, B, C. reflexivity. Qed.

Lemma ord_inputs_plain ins : Forall plain ins -> F.ord_inputs (map proj_input ins) = map slotN ins.
Proof.
  induction 1 as [|i r Hi Hr IH]; [reflexivity|]. cbn [map]. rewrite (proj_plain i Hi). cbn [F.ord_inputs].
  rewrite IH. reflexivity.
Qed.

Lemma NoDup_map_transfer {A B C} (f : A -> B) (g : A -> C) l :
  (forall x y, In x l -> In y l -> g x = g y -> f x = f y) -> NoDup (map f l) -> NoDup (map g l).
Proof.
  induction l as [|x r IH]; cbn [map]; intros Hinj Hnd; [constructor|].
  inversion_clear Hnd as [|? ? Hx Hr]. constructor.
  - intros Hin. apply in_map_iff in Hin. destruct Hin as (y & Hy & Hyin). apply Hx.
    rewrite <- (Hinj y x (or_intror Hyin) (or_introl eq_refl) Hy). apply in_map. exact Hyin.
  - apply IH; [|exact Hr]. intros a b Ha Hb. apply Hinj; right; assumption.
Qed.

Section Link.
  Variables (s : F.state) (v : V.view).
  Hypothesis VO : view_of s v.

  Lemma backed_lookup t i : PV.input_backed v t i ->
    0 <= V.i_index i /\ exists u', F.lookup F.eq2 (F.s_utxo s) (slotN i) = Some u' /\ F.u_asset u' = V.t_asset t.
  Proof.
    intros (u & Hu & Ha). destruct (vo_utxo s v VO _ _ _ Hu) as (H0 & u' & Hl & _ & Has & _).
    split; [exact H0|]. exists u'. split; [exact Hl|congruence].
  Qed.

  Lemma sum_utxos_amounts ins : forall a, PV.sum_utxos v ins = Some a ->
    PF.zsum (PF.amount_at (F.s_utxo s)) (map slotN ins) = a.
  Proof.
    induction ins as [|i r IH]; cbn [PV.sum_utxos map]; intros a H; [injection H as <-; reflexivity|].
    destruct (V.v_utxo v (V.i_hash i) (V.i_index i)) as [u|] eqn:Eu; [|discriminate H].
    destruct (PV.sum_utxos v r) as [x|]; [|discriminate H]. injection H as <-.
    destruct (vo_utxo s v VO _ _ _ Eu) as (_ & u' & Hl & Ham & _).
    rewrite PF.zsum_cons, (IH x eq_refl). unfold PF.amount_at, slotN. rewrite Hl, Ham. reflexivity.
  Qed.
End Link.

Lemma sum_outputs_proj outs : F.sum_outputs (map proj_output outs) = V.sum_map V.o_amount outs.
Proof.
  unfold F.sum_outputs, V.sum_map. induction outs as [|o r IH]; [reflexivity|]. cbn [map fold_right].
  rewrite IH. reflexivity.
Qed.

Lemma sum_submits_proj_zero outs : Forall (fun o => V.o_type o <> V.ot_wsubmit) outs ->
  F.sum_submits (map proj_output outs) = 0.
Proof.
  unfold F.sum_submits. induction 1 as [|o r Ho Hr IH]; [reflexivity|]. cbn [map fold_right].
  destruct (Z.eqb_spec (F.o_type (proj_output o)) F.ot_submit); [contradiction|exact IH].
Qed.

Lemma noslash_proj outs : Forall (fun o => V.o_type o <> V.ot_cslash) outs ->
  forallb (fun o => negb (PF.is_slash o)) (map proj_output outs) = true.
Proof.
  induction 1 as [|o r Ho Hr IH]; [reflexivity|]. cbn [map forallb]. rewrite IH, andb_true_r.
  unfold PF.is_slash. destruct (Z.eqb_spec (F.o_type (proj_output o)) F.ot_slash); [contradiction|reflexivity].
Qed.

(* what C03 provides and validation cannot know *)
Definition locked_by (s : F.state) (t' : F.tx) : Prop :=
  forall k u', In k (F.ord_inputs (F.t_inputs t')) ->
    F.lookup F.eq2 (F.s_utxo s) k = Some u' -> F.u_lock u' = F.t_hash t'.

Theorem validate_valid_tx : forall s v f h ts fork t t',
  V.validate v f h ts fork t = Ok tt ->
  view_of s v -> related t h t' ->
  h <> 0%N ->            (* H_hash_nonzero *)
  locked_by s t' ->      (* H_locked_by_this (C03) *)
  PF.valid_tx s t'.
Proof.
  intros s v f h ts fork t t' Hval VO R Hnz Hlock.
  pose proof (tx_type_proj t h t' R) as Hty. destruct R as (Rh & Ra & Ri & Ro).
  pose proof (accepted_output_shapes _ _ _ _ _ _ Hval) as Hshape.
  destruct (PV.conservation _ _ _ _ _ _ Hval) as (Hsum & _ & _ & Hback & Hnd).
  assert (Hslash : forallb (fun o => negb (PF.is_slash o)) (F.t_outputs t') = true).
  { rewrite Ro. apply noslash_proj. eapply Forall_impl; [|exact Hshape]. intros o [A _]. exact A. }
  assert (Hnosub : F.tx_type t' <> F.TySubmit -> F.sum_submits (F.t_outputs t') = 0).
  { intros Hn. rewrite Ro. apply sum_submits_proj_zero. eapply Forall_impl; [|exact Hshape].
    intros o [_ B]. apply B. intros X. apply Hn. rewrite Hty, X. reflexivity. }
  assert (Hso : F.sum_outputs (F.t_outputs t') = PV.sum_outputs t) by (rewrite Ro; apply sum_outputs_proj).
  unfold PV.sum_inputs in Hsum. destruct (existsb PV.special (V.t_inputs t)) eqn:Hsp.
  - pose proof (PV.special_single _ _ _ _ _ _ Hval Hsp) as Hlen.
    destruct (V.t_inputs t) as [|i [|j r]]; try discriminate Hlen. injection Hsum as H0.
    cbn [existsb] in Hsp. rewrite orb_false_r in Hsp. cbn [map] in Ri.
    apply (PF.valid_tx_special s t' (proj_input i) (PV.special_amount i)); rewrite ?Rh; auto.
    + exact (proj_special i Hsp).
    + congruence.
  - destruct (input_type_nospecial _ Hsp) as [[Hnone Hplain]|Hu].
    2:{ destruct (PV.validate_ok_inv _ _ _ _ _ _ Hval) as (flt & a & Hp & _).
        apply PV.precheck_not_unknown in Hp. unfold V.tx_type in Hp. rewrite Hu in Hp. discriminate Hp. }
    assert (Hord : F.ord_inputs (F.t_inputs t') = map slotN (V.t_inputs t)) by (rewrite Ri; exact (ord_inputs_plain _ Hplain)).
    assert (Hb : forall i, In i (V.t_inputs t) -> 0 <= V.i_index i /\
              exists u', F.lookup F.eq2 (F.s_utxo s) (slotN i) = Some u' /\ F.u_asset u' = V.t_asset t).
    { rewrite Forall_forall in Hback, Hplain. intros i Hi. apply (backed_lookup s v VO), Hback; [exact Hi|].
      destruct (Hplain i Hi) as (A & B & _). unfold PV.special. rewrite A, B. reflexivity. }
    constructor; rewrite ?Hord, ?Rh; auto.
    + apply (NoDup_map_transfer PV.in_slot slotN); [|exact (Hnd eq_refl)]. intros x y Hx Hy [= E1 E2].
      unfold PV.in_slot. f_equal; [exact E1|]. exact (Z2N.inj _ _ (proj1 (Hb x Hx)) (proj1 (Hb y Hy)) E2).
    + intros k Hk. apply in_map_iff in Hk. destruct Hk as (i & <- & Hi).
      destruct (Hb i Hi) as (_ & u' & Hl & Has). exists u'. split; [exact Hl|]. split; [congruence|].
      rewrite <- Rh. apply (Hlock (slotN i) u'); [|exact Hl]. rewrite Hord. exact (in_map _ _ _ Hi).
    + left. rewrite Ri, type_of_inputs_proj, Hnone, Hso. split; [reflexivity|].
      split; [exact (sum_utxos_amounts s v VO _ _ Hsum)|exact Hnosub].
Qed.

Definition accepted_member (s : F.state) (t' : F.tx) : Prop :=
  (exists v f ts fork t,
     view_of s v /\ related t (F.t_hash t') t' /\ V.validate v f (F.t_hash t') ts fork t = Ok tt)
  /\ F.t_hash t' <> 0%N        (* H_hash_nonzero *)
  /\ locked_by s t'.           (* H_locked_by_this (C03) *)

Lemma accepted_member_valid : forall s t', accepted_member s t' -> PF.valid_tx s t'.
Proof.
  intros s t' ((v & f & ts & fork & t & VO & R & Hv) & Hnz & Hl).
  exact (validate_valid_tx s v f _ ts fork t t' Hv VO R Hnz Hl).
Qed.

Fixpoint vmembers_v (s : F.state) (sn : F.snapshot) (hs : list N) : Prop :=
  match hs with
  | [] => True
  | h :: r =>
      (forall t', F.lookup F.eq1 (F.s_txs s) h = Some t' -> F.finalized s h = false -> accepted_member s t')
      /\ (forall s1, F.finalize_member s sn h = Ok s1 -> vmembers_v s1 sn r)
  end.

(* vmembers_v is PF.members at accepted_member, as PF.vmembers is at valid_tx *)
Lemma vmembers_v_impl : forall hs s sn, vmembers_v s sn hs -> PF.vmembers s sn hs.
Proof. exact (PF.members_impl accepted_member PF.valid_tx accepted_member_valid). Qed.

Section ValidatedHistory.
  Variable K : list F.tx.

  (* PF.vop, except that the members a snapshot newly finalizes must have been accepted by
     the validation model; LoadGenesis never validates, so genesis allocations keep valid_tx
     as a direct hypothesis (H_genesis_allocations, inside PF.vgen) *)
  Definition vop_v (s : F.state) (o : F.op) : Prop :=
    match o with
    | F.OpSnapshot sn _ => vmembers_v s sn (F.sn_txs sn)
    | _ => PF.vop K s o
    end.

  Inductive validated_history_v : F.state -> list F.op -> Prop :=
  | VHV_nil : forall s, validated_history_v s []
  | VHV_cons : forall s o r, vop_v s o -> validated_history_v (fst (F.step s o)) r ->
      validated_history_v s (o :: r).

  Lemma vop_v_impl : forall s o, vop_v s o -> PF.vop K s o.
  Proof. intros s []; try exact (fun H => H). apply vmembers_v_impl. Qed.

  Lemma validated_history_v_impl : forall s ops, validated_history_v s ops -> PF.validated_history K s ops.
  Proof. induction 1; constructor; auto using vop_v_impl. Qed.
End ValidatedHistory.

Definition conv_utxo (script : V.bytes) (u : F.utxo) : V.utxo :=
  {| V.u_type := F.u_type u; V.u_asset := F.u_asset u; V.u_amount := F.u_amount u;
     V.u_nkeys := V.len (F.u_keys u); V.u_script := script; V.u_lock := F.u_lock u |}.

Definition view_from (s : F.state) (script : V.bytes) (base : V.view) : V.view :=
  {| V.v_utxo := fun h i => if i <? 0 then None
                            else option_map (conv_utxo script) (F.lookup F.eq2 (F.s_utxo s) (h, Z.to_N i));
     V.v_tx := fun _ => None;
     V.v_deposit_lock := V.v_deposit_lock base; V.v_last_mint := V.v_last_mint base;
     V.v_nodes := V.v_nodes base; V.v_custodian := V.v_custodian base; V.v_asset := V.v_asset base;
     V.v_ghost_ok := V.v_ghost_ok base |}.

Lemma view_from_ok : forall s script base, view_of s (view_from s script base).
Proof.
  intros s script base. constructor; [|discriminate]. cbn [V.v_utxo view_from]. intros h i u H.
  destruct (Z.ltb_spec i 0); [discriminate H|]. split; [assumption|].
  destruct (F.lookup F.eq2 (F.s_utxo s) (h, Z.to_N i)) as [u'|]; [|discriminate H]. injection H as <-.
  exists u'. repeat split.
Qed.
